(* Number-type abstraction of the translator-generated arithmetic (Gen/Geom.v, PageGeom.v, TextOps.v, FilterGen.v).
   The generated text is parametric in a [NumOps R]; it is instantiated at Q
   (execution, lra proofs), at Z (lia proofs) and at an abstract commutative
   ring (ring proofs of the algebraic laws). *)
From Coq Require Import QArith Qround.

Record NumOps (R : Type) := mkNumOps {
  nadd : R -> R -> R;
  nsub : R -> R -> R;
  nmul : R -> R -> R;
  ndiv : R -> R -> R;
  nopp : R -> R;
  nle : R -> R -> bool;
  nlt : R -> R -> bool;
  neqb : R -> R -> bool;
  nofZ : Z -> R;
  ntrunc : R -> Z;   (* Python int(): truncation toward zero *)
  nfloor : R -> Z    (* math.floor *)
}.
Arguments nadd {R} _ _ _. Arguments nsub {R} _ _ _. Arguments nmul {R} _ _ _.
Arguments ndiv {R} _ _ _. Arguments nopp {R} _ _. Arguments nle {R} _ _ _.
Arguments nlt {R} _ _ _. Arguments neqb {R} _ _ _. Arguments nofZ {R} _ _.
Arguments ntrunc {R} _ _. Arguments nfloor {R} _ _.

(* Python's min/max on two arguments: min(a,b) = b if b < a else a;
   max(a,b) = b if b > a else a.  n-ary calls are folded left to right. *)
Definition nmin {R} (o : NumOps R) (a b : R) : R := if nlt o b a then b else a.
Definition nmax {R} (o : NumOps R) (a b : R) : R := if nlt o a b then b else a.
Definition nabs {R} (o : NumOps R) (a : R) : R := if nlt o a (nofZ o 0%Z) then nopp o a else a.

Definition Qltb (a b : Q) : bool := negb (Qle_bool b a).
Definition Qtrunc (q : Q) : Z := Z.quot (Qnum q) (Zpos (Qden q)).

Definition QOps : NumOps Q :=
  mkNumOps Q Qplus Qminus Qmult Qdiv Qopp Qle_bool Qltb Qeq_bool inject_Z Qtrunc Qfloor.

Definition ZOps : NumOps Z :=
  mkNumOps Z Z.add Z.sub Z.mul Z.div Z.opp Z.leb Z.ltb Z.eqb (fun z => z) (fun z => z) (fun z => z).

Lemma Qleb_gt a b : Qle_bool a b = false <-> (b < a)%Q.
Proof. rewrite <- not_true_iff_false, Qle_bool_iff. split; [apply Qnot_le_lt|apply Qlt_not_le]. Qed.

Lemma Qltb_lt a b : Qltb a b = true <-> (a < b)%Q.
Proof. unfold Qltb. rewrite negb_true_iff. apply Qleb_gt. Qed.

Lemma Qltb_ge a b : Qltb a b = false <-> (b <= a)%Q.
Proof. unfold Qltb. rewrite negb_false_iff. apply Qle_bool_iff. Qed.
