(* List lemmas missing from the 8.16 standard library *)
From Coq Require Import List ZArith Bool Lia.
From PdfV Require Import Base.CV.
Import ListNotations.

Lemma firstn_app_len {A} (a b : list A) n : length a = n -> firstn n (a ++ b) = a.
Proof. intros <-. rewrite firstn_app, firstn_all, Nat.sub_diag. apply app_nil_r. Qed.

Lemma skipn_app_len {A} (a b : list A) n : length a = n -> skipn n (a ++ b) = b.
Proof. intros <-. rewrite skipn_app, skipn_all, Nat.sub_diag. reflexivity. Qed.

Lemma forallb_rev {A} (p : A -> bool) l : forallb p (rev l) = forallb p l.
Proof.
  induction l as [|x r IH]; [reflexivity|]. cbn [rev]. rewrite forallb_app, IH. cbn. rewrite andb_true_r. apply andb_comm.
Qed.

(* The models compare byte strings by their own copies of [zs_eqb] (str_eqb, key_eqb, bytes_eqb, a second zs_eqb in
   Model/Xref.v); the copies are convertible, so `apply`/`exact` with these two lemmas works on each of them as it stands. *)
Lemma zs_eqb_eq a : forall b, zs_eqb a b = true <-> a = b.
Proof.
  induction a as [|x a IH]; destruct b as [|y b]; cbn; try (split; [discriminate|intros [=]]); [tauto|].
  rewrite andb_true_iff, Z.eqb_eq, IH. split; [intros [-> ->]; reflexivity|intros [= -> ->]; auto].
Qed.

Lemma zs_eqb_refl a : zs_eqb a a = true.
Proof. apply zs_eqb_eq. reflexivity. Qed.

Lemma NoDup_app_l {A} (a b : list A) : NoDup (a ++ b) -> NoDup a.
Proof.
  induction a as [|x a IH]; cbn; intros H; [constructor|].
  inversion H; subst. constructor; [|apply IH; assumption].
  intros Hin. apply H2. apply in_or_app. left. exact Hin.
Qed.

Lemma NoDup_app_r {A} (a b : list A) : NoDup (a ++ b) -> NoDup b.
Proof. induction a as [|x a IH]; cbn; intros H; [exact H|]. inversion H; subst. apply IH. assumption. Qed.

Lemma NoDup_app_disj {A} (a b : list A) x : NoDup (a ++ b) -> In x a -> In x b -> False.
Proof.
  induction a as [|y a IH]; cbn; intros H Ha Hb; [contradiction|].
  inversion H; subst. destruct Ha as [E|Ha].
  - subst. apply H2. apply in_or_app. right. exact Hb.
  - apply IH; assumption.
Qed.

Lemma NoDup_app_intro {A} (a b : list A) :
  NoDup a -> NoDup b -> (forall x, In x a -> In x b -> False) -> NoDup (a ++ b).
Proof.
  induction a as [|x a IH]; cbn; intros Ha Hb Hd; [exact Hb|].
  inversion Ha; subst. constructor.
  - intros Hin. apply in_app_or in Hin. destruct Hin as [Hin|Hin]; [contradiction|].
    apply (Hd x); [left; reflexivity|exact Hin].
  - apply IH; [assumption|assumption|]. intros y Hy1 Hy2. apply (Hd y); [right; exact Hy1|exact Hy2].
Qed.

Lemma skipn_add {A} (a b : nat) (l : list A) : skipn a (skipn b l) = skipn (b + a) l.
Proof.
  revert l. induction b as [|b IH]; intros l; [reflexivity|].
  destruct l as [|x r]; [cbn; destruct a; reflexivity|]. cbn. apply IH.
Qed.

(* lengths of filtered lists, for measures that count the elements not yet visited *)
Lemma filter_length_le {A} (f g : A -> bool) l : (forall x, f x = true -> g x = true) ->
  (length (filter f l) <= length (filter g l))%nat.
Proof.
  intros H. induction l as [|x r IH]; [apply le_n|]. cbn [filter]. specialize (H x).
  destruct (f x); [rewrite H by reflexivity|destruct (g x)]; cbn [length]; lia.
Qed.
Lemma filter_length_lt {A} (f g : A -> bool) l a : In a l -> f a = false -> g a = true ->
  (forall x, f x = true -> g x = true) -> (length (filter f l) < length (filter g l))%nat.
Proof.
  intros Hin Hf Hg H. induction l as [|x r IH]; [destruct Hin|]. cbn [filter]. destruct Hin as [->|Hin].
  - rewrite Hf, Hg. pose proof (filter_length_le f g r H). cbn [length]. lia.
  - specialize (IH Hin). specialize (H x). destruct (f x); [rewrite H by reflexivity|destruct (g x)]; cbn [length]; lia.
Qed.
Lemma filter_length_all {A} (f : A -> bool) l : (length (filter f l) <= length l)%nat.
Proof. induction l as [|x r IH]; [apply le_n|]. cbn [filter]. destruct (f x); cbn [length]; lia. Qed.

Lemma skipn_nth_error {A} (l : list A) : forall k e, nth_error l k = Some e -> skipn k l = e :: skipn (S k) l.
Proof. induction l as [|y r IH]; intros [|k] e H; try discriminate; [inversion H; reflexivity|apply IH, H]. Qed.

Lemma concat_length_uniform {A} n (l : list (list A)) :
  Forall (fun r => length r = n) l -> length (concat l) = (n * length l)%nat.
Proof.
  induction 1 as [|r l0 Hr Hl0 IH]; [cbn [concat length]; rewrite Nat.mul_0_r; reflexivity|].
  cbn [concat length]. rewrite app_length, IH, Hr, Nat.mul_succ_r. lia.
Qed.

Lemma NoDup_map_inj {A B} (f : A -> B) l :
  NoDup (map f l) -> forall a b, In a l -> In b l -> f a = f b -> a = b.
Proof.
  induction l as [|y l IH]; cbn [map]; intros ND a b Ha Hb E; [contradiction|].
  inversion ND as [|? ? Hy ND']; subst.
  destruct Ha as [->|Ha], Hb as [->|Hb]; auto; exfalso; apply Hy; [rewrite E|rewrite <- E]; apply in_map; assumption.
Qed.

Lemma NoDup_map_filter {A B} (f : A -> B) g l : NoDup (map f l) -> NoDup (map f (filter g l)).
Proof.
  induction l as [|y l IH]; cbn [map filter]; intros ND; [constructor|].
  inversion ND as [|? ? Hy ND']; subst. destruct (g y); [|auto]. cbn [map]. constructor; [|auto].
  intros H. apply Hy. apply in_map_iff in H. destruct H as (x & <- & Hx). apply in_map, (incl_filter g l), Hx.
Qed.

Lemma NoDup_flat_map {A B} (f : A -> list B) l :
  NoDup l -> (forall x, In x l -> NoDup (f x)) ->
  (forall x y z, In x l -> In y l -> In z (f x) -> In z (f y) -> x = y) -> NoDup (flat_map f l).
Proof.
  induction l as [|a l IH]; intros Hl Hf Hd; [constructor|]. inversion Hl as [|? ? Ha Hl']; subst. cbn [flat_map].
  apply NoDup_app_intro.
  - apply Hf. left. reflexivity.
  - apply IH; [exact Hl'|intros x Hx; apply Hf; right; exact Hx|]. intros x y z Hx Hy. apply Hd; right; assumption.
  - intros z Hz Hz2. apply in_flat_map in Hz2. destruct Hz2 as (y & Hy & Hzy).
    apply Ha. rewrite (Hd a y z); [exact Hy|left; reflexivity|right; exact Hy|exact Hz|exact Hzy].
Qed.

Lemma flat_map_ext_in {A B} (f g : A -> list B) l : (forall x, In x l -> f x = g x) -> flat_map f l = flat_map g l.
Proof.
  induction l as [|x l IH]; intros H; [reflexivity|]. cbn [flat_map]. rewrite (H x (or_introl eq_refl)). f_equal.
  apply IH. intros y Hy. apply H. right. exact Hy.
Qed.

Lemma combine_app_l {A B} (a1 a2 : list A) : forall l : list B,
  combine (a1 ++ a2) l = combine a1 l ++ combine a2 (skipn (length a1) l).
Proof.
  induction a1 as [|y a1 IH]; intros [|z l]; cbn [app combine length skipn]; try reflexivity.
  - symmetry. apply combine_nil.
  - f_equal. apply IH.
Qed.

Lemma filter_none {A} (f : A -> bool) l : forallb (fun x => negb (f x)) l = true -> filter f l = [].
Proof.
  induction l as [|x l IH]; [reflexivity|]. cbn [forallb filter]. intros H. apply andb_true_iff in H.
  destruct H as [Hx Hl]. apply negb_true_iff in Hx. rewrite Hx. apply IH, Hl.
Qed.

Lemma filter_negb_none {A} (f : A -> bool) l : forallb f l = true -> filter (fun x => negb (f x)) l = [].
Proof.
  induction l as [|x l IH]; [reflexivity|]. cbn [forallb filter]. intros H. apply andb_true_iff in H.
  destruct H as [Hx Hl]. rewrite Hx. apply IH, Hl.
Qed.

Lemma forallb_impl {A} (p q : A -> bool) l : (forall x, p x = true -> q x = true) ->
  forallb p l = true -> forallb q l = true.
Proof. intros H. rewrite !forallb_forall. auto. Qed.

Lemma Forall_fix {A} (P : A -> Prop) l :
  (fix go (l : list A) : Prop := match l with [] => True | x :: r => P x /\ go r end) l <-> Forall P l.
Proof. induction l as [|x r IH]; [split; constructor|]. rewrite Forall_cons_iff, <- IH. reflexivity. Qed.

Lemma forallb_concat {A} (p : A -> bool) gs : forallb p (concat gs) = forallb (forallb p) gs.
Proof. induction gs as [|g gs IH]; [reflexivity|]. cbn [concat forallb]. rewrite forallb_app, IH. reflexivity. Qed.
