(* C08: boxes -> groups keeps every box as exactly one leaf of the hierarchy, and terminates. *)
From Coq Require Import QArith List Lia Permutation.
From PdfV Require Import Base.ListX Model.Plane Model.Layout Proofs.PlaneProofs Proofs.LayoutProofs.
Import ListNotations.

Fixpoint leaves (t : tnode) : list nat :=
  match t with NBox i => [i] | NGroup _ _ a b => leaves a ++ leaves b end.
(* the boxes below object i; like [info], it reads only the table of nodes *)
Definition leaves_of (ns : list (nat * nodeinfo)) (i : nat) : list nat :=
  leaves (ntree (match nassoc i ns with Some n => n | None => mkNI (NBox i) (0, 0, 0, 0)%Q false end)).

Lemma leaves_of_cons g gi ns i :
  leaves_of ((g, gi) :: ns) i = if Nat.eqb i g then leaves (ntree gi) else leaves_of ns i.
Proof. unfold leaves_of. cbn [nassoc]. destruct (Nat.eqb i g); reflexivity. Qed.

Lemma info_cons st g gi i : i <> g ->
  info (mkGB ((g, gi) :: nodes st) (live st) (gplane st) (dists st) (gdone st) (nextid st) (ambiguous st)) i = info st i.
Proof. intros H. unfold info. cbn [nodes nassoc]. apply Nat.eqb_neq in H. rewrite H. reflexivity. Qed.

Lemma remove_live_in i l x : In x (remove_live i l) <-> In x l /\ x <> i.
Proof. unfold remove_live. rewrite filter_In, negb_true_iff, Nat.eqb_neq. tauto. Qed.

Lemma remove_live_perm i l : NoDup l -> In i l -> Permutation l (i :: remove_live i l).
Proof.
  intros Hnd Hi. apply NoDup_Permutation; [exact Hnd| |].
  - constructor; [rewrite remove_live_in; tauto|apply NoDup_filter; exact Hnd].
  - intros x. cbn [In]. rewrite remove_live_in. destruct (Nat.eq_dec i x); intuition congruence.
Qed.

(* what a merge of a and b into the new g does to the two lists: live loses a and b and gains g, done gains a and b *)
Lemma merge_perm (live done : list nat) a b g : NoDup live -> In a live -> In b live -> a <> b ->
  let live' := remove_live b (remove_live a live) in
  Permutation live (a :: b :: live') /\ Permutation ((live' ++ [g]) ++ a :: b :: done) (g :: live ++ done).
Proof.
  intros Hnd Ha Hb Hab live'.
  assert (P : Permutation live (a :: b :: live')).
  { rewrite (remove_live_perm a live Hnd Ha) at 1. constructor.
    apply remove_live_perm; [apply NoDup_filter; exact Hnd|]. apply remove_live_in. split; [exact Hb|congruence]. }
  split; [exact P|].
  rewrite P, <- Permutation_cons_append. cbn [app]. constructor. rewrite <- !Permutation_middle. reflexivity.
Qed.

(* an entry is popped at most twice: once as it is, once after it has been pushed back with skip set *)
Fixpoint weight (l : list entry) : nat :=
  match l with [] => 0 | e :: r => (if eskip e then 1 else 2) + weight r end.

Lemma weight_app a b : weight (a ++ b) = (weight a + weight b)%nat.
Proof. induction a as [|e a IH]; [reflexivity|]. cbn [app weight]. rewrite IH. lia. Qed.
Lemma weight_pushed {A} (f : A -> entry) (l : list A) : (forall x, eskip (f x) = false) -> weight (map f l) = (2 * length l)%nat.
Proof. intros H. induction l as [|x l IH]; [reflexivity|]. cbn [map weight length]. rewrite IH, H. lia. Qed.
Lemma weight_le l : (weight l <= 2 * length l)%nat.
Proof. induction l as [|e l IH]; [cbn; lia|]. cbn [weight length]. destruct (eskip e); lia. Qed.

Lemma min_entry_in rank : forall l cur, In (min_entry rank cur l) (cur :: l).
Proof.
  induction l as [|e r IH]; intros cur; [left; reflexivity|]. cbn [min_entry].
  destruct (IH (if entry_lt rank e cur then e else cur)) as [H|H].
  - destruct (entry_lt rank e cur); [right; left; exact H|left; exact H].
  - right. right. exact H.
Qed.
Lemma entry_same_refl e : entry_same e e = true.
Proof. unfold entry_same. rewrite eqb_reflx, Qeq_bool_refl, !Nat.eqb_refl. reflexivity. Qed.
Lemma entry_same_skip e x : entry_same e x = true -> eskip e = eskip x.
Proof. unfold entry_same. rewrite !andb_true_iff. intros [[[E _] _] _]. apply eqb_prop, E. Qed.
Lemma remove_entry_in x l e : In e (remove_entry x l) -> In e l.
Proof.
  induction l as [|y l IH]; [intros []|]. cbn [remove_entry]. destruct (entry_same y x); [intros H; right; exact H|].
  intros [<-|H]; [left; reflexivity|right; apply IH; exact H].
Qed.
Lemma remove_entry_weight x l : In x l -> (weight (remove_entry x l) + (if eskip x then 1 else 2) = weight l)%nat.
Proof.
  induction l as [|y l IH]; [intros []|]. intros Hin. cbn [remove_entry weight]. destruct (entry_same y x) eqn:E.
  - rewrite (entry_same_skip y x E). lia.
  - destruct Hin as [->|Hin]; [rewrite entry_same_refl in E; discriminate|]. cbn [weight]. specialize (IH Hin). lia.
Qed.

(* every object ever created is either live or done, never both, and the entries speak only of such objects *)
Record J (n : nat) (st : gbstate) : Prop := mkJ {
  j_nodup : NoDup (live st ++ gdone st);
  j_leaves : Permutation (flat_map (leaves_of (nodes st)) (live st)) (seq 0 n);
  j_fresh : forall i, In i (live st ++ gdone st) -> (i < nextid st)%nat;
  j_entries : forall e, In e (dists st) ->
                ea e <> eb e /\ In (ea e) (live st ++ gdone st) /\ In (eb e) (live st ++ gdone st);
  j_bound : (length (live st) <= n)%nat
}.

(* a merge shortens [live] by one and pushes at most n entries of weight 2, hence the factor 2n+1; at the start
   there are at most n^2 entries and n live objects, which gives gb_fuel n = 4n^2+n+1 *)
Definition mu (n : nat) (st : gbstate) : nat := (weight (dists st) + (2 * n + 1) * length (live st))%nat.

Lemma gb_step_J rank n st : J n st -> dists st <> [] ->
  J n (gb_step rank st) /\ (mu n (gb_step rank st) < mu n st)%nat.
Proof.
  intros [Jnd Jlv Jfr Jen Jb] Hne.
  unfold gb_step, mu. destruct (dists st) as [|e0 r] eqn:Ed; [congruence|].
  set (e := min_entry rank e0 r).
  pose proof (min_entry_in rank r e0 : In e (e0 :: r)) as Hein.
  pose proof (remove_entry_weight e _ Hein) as Hw.
  set (rest := remove_entry e (e0 :: r)) in *.
  assert (Hrest : forall x, In x rest -> In x (e0 :: r)) by (intros x; apply remove_entry_in).
  destruct (mem_nat (ea e) (gdone st) || mem_nat (eb e) (gdone st)) eqn:Edone.
  - (* an entry of already merged objects: dropped *)
    split; [constructor; cbn [live dists gdone nextid nodes]; auto|].
    cbn [dists live]. destruct (eskip e); lia.
  - apply orb_false_iff in Edone. destruct Edone as [Ea Eb]. apply mem_nat_nIn in Ea, Eb.
    destruct (Jen e Hein) as (Hab & Hina & Hinb). apply in_app_or in Hina, Hinb.
    destruct Hina as [Hina|?]; [|contradiction]. destruct Hinb as [Hinb|?]; [|contradiction].
    destruct (negb (eskip e) && isany st (ea e) (eb e)) eqn:Eany.
    + (* something lies between: pushed back once, flagged *)
      apply andb_true_iff in Eany. destruct Eany as [Esk _]. apply negb_true_iff in Esk. rewrite Esk in Hw.
      split; [|cbn [dists live weight eskip] in Hw |- *; lia].
      constructor; cbn [live dists gdone nextid nodes]; auto.
      intros x [<-|Hx]; [exact (Jen e Hein)|apply Jen, Hrest, Hx].
    + (* merge: a and b move from live to done, the new group g becomes live *)
      set (a := ea e) in *. set (b := eb e) in *. set (g := nextid st).
      set (ia := info st a). set (ib := info st b).
      set (live' := remove_live b (remove_live a (live st))).
      destruct (merge_perm (live st) (gdone st) a b g (NoDup_app_l _ _ Jnd) Hina Hinb Hab) as [P Q]. fold live' in P, Q.
      assert (Hg : forall x, In x live' -> x <> g).
      { intros x Hx. apply (Nat.lt_neq x g), Jfr, in_or_app. left.
        apply (Permutation_in x (Permutation_sym P)). right. right. exact Hx. }
      apply Permutation_length in P as Hlen. cbn [length] in Hlen.
      split.
      * constructor; cbn [live dists gdone nextid nodes].
        -- apply (Permutation_NoDup (Permutation_sym Q)). constructor; [|exact Jnd].
           intros H. apply Jfr in H. unfold g in H. lia.
        -- rewrite flat_map_app. cbn [flat_map]. rewrite leaves_of_cons, Nat.eqb_refl, app_nil_r. cbn [ntree leaves].
           rewrite (flat_map_ext_in _ (leaves_of (nodes st)) live').
           2:{ intros x Hx. rewrite leaves_of_cons. apply Hg, Nat.eqb_neq in Hx. rewrite Hx. reflexivity. }
           rewrite <- Jlv, P. cbn [flat_map]. rewrite Permutation_app_comm, <- app_assoc. reflexivity.
        -- intros x Hx. apply (Permutation_in _ Q) in Hx. destruct Hx as [<-|Hx]; [|apply Jfr in Hx]; unfold g in *; lia.
        -- intros x Hx. apply in_app_or in Hx. destruct Hx as [Hx|Hx].
           ++ destruct (Jen x (Hrest x Hx)) as (H1 & H2 & H3).
              split; [exact H1|]. split; apply (Permutation_in _ (Permutation_sym Q)); right; assumption.
           ++ apply in_map_iff in Hx. destruct Hx as (o & <- & Ho). cbn [ea eb].
              split; [apply not_eq_sym, Hg, Ho|].
              split; apply in_or_app; left; apply in_or_app; [right; left; reflexivity|left; exact Ho].
        -- rewrite app_length. cbn [length]. lia.
      * cbn [dists live]. rewrite weight_app, app_length, weight_pushed by reflexivity. cbn [length].
        destruct (eskip e); nia.
Qed.

Lemma gb_loop_ok rank n : forall fuel st, J n st -> (mu n st < fuel)%nat ->
  exists st', gb_loop rank fuel st = Some st' /\ J n st'.
Proof.
  induction fuel as [|f IH]; intros st HJ Hmu; [lia|].
  cbn [gb_loop]. destruct (dists st) eqn:Ed; [exists st; split; [reflexivity|exact HJ]|].
  destruct (gb_step_J rank n st HJ) as [HJ' Hlt]; [rewrite Ed; discriminate|]. apply IH; [exact HJ'|lia].
Qed.

Lemma pairs_from_spec i bi : forall rest e, In e (pairs_from i bi rest) -> ea e = i /\ In (eb e) (map fst rest).
Proof.
  induction rest as [|[j bj] r IH]; intros e H; [contradiction|]. cbn [pairs_from] in H.
  destruct H as [<-|H]; [split; [reflexivity|left; reflexivity]|].
  destruct (IH e H) as (A & B). split; [exact A|right; exact B].
Qed.
Lemma all_pairs_spec : forall l e, NoDup (map fst l) -> In e (all_pairs l) ->
  ea e <> eb e /\ In (ea e) (map fst l) /\ In (eb e) (map fst l).
Proof.
  induction l as [|[i bi] r IH]; intros e Hnd H; [contradiction|]. cbn [all_pairs] in H. cbn [map fst] in *.
  inversion Hnd as [|? ? Hi Hr]; subst. apply in_app_or in H. destruct H as [H|H].
  - destruct (pairs_from_spec i bi r e H) as (-> & B).
    split; [intros E; apply Hi; rewrite E; exact B|]. split; [left; reflexivity|right; exact B].
  - destruct (IH e Hr H) as (A & B & C). split; [exact A|split; right; assumption].
Qed.
Lemma pairs_from_length i bi rest : length (pairs_from i bi rest) = length rest.
Proof. induction rest as [|[j bj] r IH]; [reflexivity|]. cbn [pairs_from length]. rewrite IH. reflexivity. Qed.
Lemma all_pairs_length l : (length (all_pairs l) <= length l * length l)%nat.
Proof.
  induction l as [|[i bi] r IH]; [cbn; lia|]. cbn [all_pairs length]. rewrite app_length, pairs_from_length. nia.
Qed.

(* a table whose entry for key k is the box k: every object, listed or not, has itself as its only leaf *)
Lemma leaves_of_boxes {X} (f : nat * X -> box) (v : nat * X -> bool) l i :
  leaves_of (map (fun ib => (fst ib, mkNI (NBox (fst ib)) (f ib) (v ib))) l) i = [i].
Proof.
  induction l as [|[k x] l IH]; [reflexivity|]. cbn [map]. rewrite leaves_of_cons. cbn [fst ntree leaves].
  destruct (Nat.eqb_spec i k) as [->|_]; [reflexivity|exact IH].
Qed.

Lemma gb_init_J pb boxes : J (length boxes) (gb_init pb boxes).
Proof.
  unfold gb_init. set (ibs := combine (seq 0 (length boxes)) boxes).
  assert (Hfst : map fst ibs = seq 0 (length boxes)) by apply enum_fst.
  constructor; cbn [live dists gdone nextid nodes]; rewrite ?app_nil_r, ?Hfst.
  - apply seq_NoDup.
  - rewrite (flat_map_ext _ (fun i => [i])) by apply leaves_of_boxes.
    clear. induction (seq 0 (length boxes)) as [|x l IH]; [reflexivity|]. cbn [flat_map app]. constructor. exact IH.
  - intros i Hi. apply in_seq in Hi. lia.
  - intros e He.
    assert (E : map fst (map (fun ib : nat * tbox => (fst ib, bbbox (snd ib))) ibs) = seq 0 (length boxes))
      by (rewrite map_map; exact Hfst).
    rewrite <- E. apply all_pairs_spec; [rewrite E; apply seq_NoDup|exact He].
  - rewrite seq_length. lia.
Qed.

Theorem group_textboxes_conserves rank pb boxes :
  exists trees amb, group_textboxes rank pb boxes = Some (trees, amb) /\
                    Permutation (flat_map leaves trees) (seq 0 (length boxes)).
Proof.
  unfold group_textboxes. set (n := length boxes).
  assert (Hmu : (mu n (gb_init pb boxes) < gb_fuel n)%nat).
  { unfold mu, gb_fuel, gb_init. cbn [dists live]. rewrite map_length, enum_length. fold n.
    set (ps := map _ _). assert (Ln : length ps = n) by (unfold ps; rewrite map_length; apply enum_length).
    pose proof (weight_le (all_pairs ps)) as W. pose proof (all_pairs_length ps) as L. rewrite Ln in L. nia. }
  destruct (gb_loop_ok rank n (gb_fuel n) (gb_init pb boxes) (gb_init_J pb boxes) Hmu) as (st' & E & HJ).
  rewrite E. eexists. eexists. split; [reflexivity|].
  rewrite flat_map_concat_map, map_map, <- flat_map_concat_map. exact (j_leaves _ _ HJ).
Qed.

Lemma tree_order_perm bf boxes : forall t, Permutation (tree_order bf boxes t) (leaves t).
Proof.
  induction t as [i|id tbrl a IHa b IHb]; [reflexivity|]. cbn [tree_order leaves].
  destruct (Qle_bool _ _); rewrite IHa, IHb; [reflexivity|apply Permutation_app_comm].
Qed.
