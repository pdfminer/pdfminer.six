(* C09: invariance of the glyph -> line stage under scaling of the page by k > 0. *)
From Coq Require Import QArith List Lqa.
From PdfV Require Import Base.Num Model.Plane Model.Layout.
Open Scope Q_scope.

Section Scale.
  Variable k : Q.
  Hypothesis kpos : 0 < k.

  Lemma Qle_bool_scale a b : Qle_bool (k * a) (k * b) = Qle_bool a b.
  Proof.
    destruct (Qle_bool a b) eqn:E.
    - apply Qle_bool_iff. apply Qle_bool_iff in E. nra.
    - apply Qleb_gt. apply Qleb_gt in E. nra.
  Qed.
  Lemma Qle_bool_scale' a a0 b b0 : a == k * a0 -> b == k * b0 -> Qle_bool a b = Qle_bool a0 b0.
  Proof. intros Ha Hb. rewrite Ha, Hb. apply Qle_bool_scale. Qed.
  Lemma Qltb_scale' a a0 b b0 : a == k * a0 -> b == k * b0 -> Qltb a b = Qltb a0 b0.
  Proof. intros Ha Hb. unfold Qltb. rewrite (Qle_bool_scale' _ _ _ _ Hb Ha). reflexivity. Qed.

  Lemma qmin_scale a a0 b b0 : a == k * a0 -> b == k * b0 -> qmin a b == k * qmin a0 b0.
  Proof. intros Ha Hb. unfold qmin. rewrite (Qltb_scale' _ _ _ _ Hb Ha). destruct (Qltb b0 a0); assumption. Qed.
  Lemma qmax_scale a a0 b b0 : a == k * a0 -> b == k * b0 -> qmax a b == k * qmax a0 b0.
  Proof. intros Ha Hb. unfold qmax. rewrite (Qltb_scale' _ _ _ _ Ha Hb). destruct (Qltb a0 b0); assumption. Qed.
  Lemma qabs_scale a a0 : a == k * a0 -> qabs a == k * qabs a0.
  Proof.
    intros Ha. unfold qabs. assert (Z0 : 0 == k * 0) by ring. rewrite (Qltb_scale' _ _ _ _ Ha Z0).
    destruct (Qltb a0 0); [rewrite Ha; ring|exact Ha].
  Qed.

  Definition sb (b : box) : box := (k * bx0 b, k * by0 b, k * bx1 b, k * by1 b).
  Lemma sb_x0 b : bx0 (sb b) = k * bx0 b. Proof. reflexivity. Qed.
  Lemma sb_y0 b : by0 (sb b) = k * by0 b. Proof. reflexivity. Qed.
  Lemma sb_x1 b : bx1 (sb b) = k * bx1 b. Proof. reflexivity. Qed.
  Lemma sb_y1 b : by1 (sb b) = k * by1 b. Proof. reflexivity. Qed.
  Lemma width_scale b : width (sb b) == k * width b.
  Proof. unfold width. rewrite sb_x0, sb_x1. ring. Qed.
  Lemma height_scale b : height (sb b) == k * height b.
  Proof. unfold height. rewrite sb_y0, sb_y1. ring. Qed.

  Lemma is_hoverlap_scale a b : is_hoverlap (sb a) (sb b) = is_hoverlap a b.
  Proof. unfold is_hoverlap. rewrite !sb_x0, !sb_x1, !Qle_bool_scale. reflexivity. Qed.
  Lemma is_voverlap_scale a b : is_voverlap (sb a) (sb b) = is_voverlap a b.
  Proof. unfold is_voverlap. rewrite !sb_y0, !sb_y1, !Qle_bool_scale. reflexivity. Qed.
  Lemma hgap_scale a b : hgap (sb a) (sb b) == k * hgap a b.
  Proof. unfold hgap. rewrite !sb_x0, !sb_x1. apply qmin_scale; apply qabs_scale; ring. Qed.
  Lemma vgap_scale a b : vgap (sb a) (sb b) == k * vgap a b.
  Proof. unfold vgap. rewrite !sb_y0, !sb_y1. apply qmin_scale; apply qabs_scale; ring. Qed.
  Lemma hdistance_scale a b : hdistance (sb a) (sb b) == k * hdistance a b.
  Proof. unfold hdistance. rewrite is_hoverlap_scale. destruct (is_hoverlap a b); [ring|apply hgap_scale]. Qed.
  Lemma hoverlap_scale a b : hoverlap (sb a) (sb b) == k * hoverlap a b.
  Proof. unfold hoverlap. rewrite is_hoverlap_scale. destruct (is_hoverlap a b); [apply hgap_scale|ring]. Qed.
  Lemma vdistance_scale a b : vdistance (sb a) (sb b) == k * vdistance a b.
  Proof. unfold vdistance. rewrite is_voverlap_scale. destruct (is_voverlap a b); [ring|apply vgap_scale]. Qed.
  Lemma voverlap_scale a b : voverlap (sb a) (sb b) == k * voverlap a b.
  Proof. unfold voverlap. rewrite is_voverlap_scale. destruct (is_voverlap a b); [apply vgap_scale|ring]. Qed.

  Theorem halign_scale p a b : halign p (sb a) (sb b) = halign p a b.
  Proof.
    unfold halign. rewrite is_voverlap_scale. f_equal; [f_equal|].
    - apply Qltb_scale'; [|apply voverlap_scale].
      rewrite (qmin_scale _ _ _ _ (height_scale a) (height_scale b)). ring.
    - apply Qltb_scale'; [apply hdistance_scale|].
      rewrite (qmax_scale _ _ _ _ (width_scale a) (width_scale b)). ring.
  Qed.
  Theorem valign_scale p a b : valign p (sb a) (sb b) = valign p a b.
  Proof.
    unfold valign. rewrite is_hoverlap_scale. f_equal; [f_equal|].
    - apply Qltb_scale'; [|apply hoverlap_scale].
      rewrite (qmin_scale _ _ _ _ (width_scale a) (width_scale b)). ring.
    - apply Qltb_scale'; [apply vdistance_scale|].
      rewrite (qmax_scale _ _ _ _ (height_scale a) (height_scale b)). ring.
  Qed.

  Definition sg (g : glyph) : glyph := mkG (gid g) (sb (gbox g)) (gtext g).
  Definition se (e : elem) : elem := match e with EChar g => EChar (sg g) | EAnno t => EAnno t end.
  Definition sl (l : line) : line :=
    mkLine (lori l) (map se (lelems l)) (option_map sb (lbox l)) (option_map (Qmult k) (llast l)).

  Lemma needs_space_scale p l g : needs_space p (sl l) (sg g) = needs_space p l g.
  Proof.
    unfold needs_space. cbn [sl sg gbox lori llast]. f_equal.
    assert (M : word_margin p * qmax (width (sb (gbox g))) (height (sb (gbox g))) ==
                k * (word_margin p * qmax (width (gbox g)) (height (gbox g)))).
    { rewrite (qmax_scale _ _ _ _ (width_scale (gbox g)) (height_scale (gbox g))). ring. }
    destruct (lori l); destruct (llast l) as [x|]; cbn [option_map]; try reflexivity.
    - apply Qltb_scale'; [reflexivity|]. rewrite sb_x0, M. ring.
    - apply Qltb_scale'; [|reflexivity]. rewrite sb_y1, M. ring.
  Qed.

  Lemma union_box_scale c o : union_box (option_map sb c) (sb o) = sb (union_box c o).
  Proof.
    destruct o as [[[ox0 oy0] ox1] oy1]. destruct c as [[[[cx0 cy0] cx1] cy1]|]; [|reflexivity].
    cbn [option_map union_box sb bx0 by0 bx1 by1]. unfold qmin, qmax. rewrite !(Qltb_scale' _ _ _ _ (Qeq_refl _) (Qeq_refl _)).
    destruct (Qltb ox0 cx0), (Qltb oy0 cy0), (Qltb cx1 ox1), (Qltb cy1 oy1); reflexivity.
  Qed.

  Lemma line_add_scale p l g : line_add p (sl l) (sg g) = sl (line_add p l g).
  Proof.
    unfold line_add. rewrite needs_space_scale. unfold sl at 2. cbn [lori lelems lbox llast].
    unfold sl. cbn [lori lelems lbox llast option_map]. f_equal.
    - rewrite !map_app. destruct (needs_space p l g); reflexivity.
    - f_equal. apply union_box_scale.
    - destruct (lori l); reflexivity.
  Qed.

  Lemma new_line_scale o : sl (new_line o) = new_line o.
  Proof. reflexivity. Qed.

  Lemma go_loop_scale p : forall rest obj0 cur,
    go_loop p (sg obj0) (option_map sl cur) (map sg rest) = map sl (go_loop p obj0 cur rest).
  Proof.
    induction rest as [|obj1 r IH]; intros obj0 cur.
    - cbn [map go_loop]. destruct cur as [l|]; cbn [option_map map]; [reflexivity|].
      rewrite <- (new_line_scale OH), line_add_scale. reflexivity.
    - cbn [map go_loop]. cbn [sg gbox]. rewrite halign_scale, valign_scale.
      destruct cur as [l|]; cbn [option_map].
      + assert (Hh : is_h (sl l) = is_h l) by reflexivity. rewrite Hh.
        destruct ((halign p (gbox obj0) (gbox obj1) && is_h l) || (valign p (gbox obj0) (gbox obj1) && negb (is_h l))).
        * rewrite <- (IH obj1 (Some (line_add p l obj1))). cbn [option_map]. rewrite <- line_add_scale. reflexivity.
        * cbn [map]. f_equal. exact (IH obj1 None).
      + destruct (valign p (gbox obj0) (gbox obj1) && negb (halign p (gbox obj0) (gbox obj1))).
        * rewrite <- (IH obj1 (Some (line_add p (line_add p (new_line OV) obj0) obj1))). cbn [option_map].
          rewrite <- !line_add_scale, new_line_scale. reflexivity.
        * destruct (halign p (gbox obj0) (gbox obj1) && negb (valign p (gbox obj0) (gbox obj1))).
          -- rewrite <- (IH obj1 (Some (line_add p (line_add p (new_line OH) obj0) obj1))). cbn [option_map].
             rewrite <- !line_add_scale, new_line_scale. reflexivity.
          -- cbn [map]. f_equal; [rewrite <- line_add_scale, new_line_scale; reflexivity|exact (IH obj1 None)].
  Qed.

End Scale.
