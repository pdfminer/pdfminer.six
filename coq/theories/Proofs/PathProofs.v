(* C16 proofs: what paint_path makes of a path: one shape per subpath, each carrying the paint flags and the graphics
   state; four corners that alternate between the axes give a rectangle. *)
From Coq Require Import QArith List.
From PdfV Require Import Base.ListX Model.Interp Model.PathPaint.
Import ListNotations.

Definition path_ender (k : opname) : bool :=
  match k with KS | Ks | Kf | Kfstar | KB | KBstar | Kb | Kbstar | Kn => true | _ => false end.

Lemma if_both {A} (P : A -> Prop) (b : bool) x y : P x -> P y -> P (if b then x else y).
Proof. destruct b; auto. Qed.

Lemma paint_single_shape g st fi eo c path : path <> [] ->
  exists k p, paint_single g st fi eo c path =
    [mkShape k p st fi eo (glinewidth g) (gdash g) (gscolor g) (gncolor g)
             (map (fun s => (seg_letter s, map (mpt c) (seg_operands s))) path)].
Proof.
  unfold paint_single. destruct path as [|first r]; [congruence|]. intros _. cbv zeta.
  repeat apply if_both; eexists _, _; reflexivity.
Qed.

Lemma paint_path_Forall (P : shape -> Prop) g st fi eo c :
  (forall sub, Forall P (paint_single g st fi eo c sub)) -> forall path, Forall P (paint_path g st fi eo c path).
Proof.
  intros H path. unfold paint_path. destruct path as [|s r]; [constructor|].
  destruct (negb (is_m s)); [constructor|]. destruct (1 <? count_m (s :: r))%nat; [|apply H].
  apply Forall_flat_map, Forall_forall. intros sub _. apply H.
Qed.

(* a subpath: m followed by at least one operator, none of them m *)
Definition subpath_ok (sub : list seg) : Prop :=
  match sub with
  | s :: t => is_m s = true /\ t <> [] /\ forallb (fun x => negb (is_m x)) t = true
  | [] => False
  end.

Lemma split_m_tail : forall t cur rest,
  forallb (fun x => negb (is_m x)) t = true -> cur <> [] ->
  split_m (t ++ rest) cur = split_m rest (cur ++ t).
Proof.
  induction t as [|x t IH]; intros cur rest Ht Hc; [rewrite app_nil_r; reflexivity|].
  cbn [forallb] in Ht. apply andb_true_iff in Ht. destruct Ht as [Hx Ht]. apply negb_true_iff in Hx.
  cbn [app split_m]. rewrite Hx. destruct cur as [|c0 cur']; [congruence|].
  rewrite IH; [|exact Ht|destruct cur'; discriminate]. rewrite <- app_assoc. reflexivity.
Qed.

Lemma split_m_subs : forall subs cur, Forall subpath_ok subs ->
  split_m (concat subs) cur = (match cur with _ :: _ :: _ => [cur] | _ => [] end) ++ subs.
Proof.
  induction subs as [|sub subs IH]; intros cur Hok.
  - cbn. rewrite app_nil_r. destruct cur as [|a [|b r]]; reflexivity.
  - inversion Hok as [|? ? Hs Hr]; subst. destruct sub as [|s t]; [contradiction|].
    destruct Hs as (Hm & Hne & Hno). cbn [concat app split_m]. rewrite Hm.
    rewrite split_m_tail by (auto; discriminate).
    destruct t as [|t0 t']; [congruence|].
    rewrite (IH ([s] ++ t0 :: t') Hr). cbn [app].
    destruct cur as [|a [|b r]]; reflexivity.
Qed.

Lemma count_m_subs subs : Forall subpath_ok subs -> count_m (concat subs) = length subs.
Proof.
  induction 1 as [|sub subs Hs Hr IH]; [reflexivity|]. destruct sub as [|s t]; [contradiction|].
  destruct Hs as (Hm & _ & Hno). unfold count_m in *. cbn [concat app filter]. rewrite Hm.
  rewrite filter_app, (filter_none _ _ Hno). cbn [length app]. rewrite IH. reflexivity.
Qed.

Lemma paint_path_subpaths g st fi eo c subs : Forall subpath_ok subs ->
  paint_path g st fi eo c (concat subs) = flat_map (paint_single g st fi eo c) subs.
Proof.
  intros Hok. unfold paint_path. destruct subs as [|sub subs]; [reflexivity|].
  inversion Hok as [|? ? Hs Hr]; subst. destruct sub as [|s t]; [contradiction|].
  destruct Hs as (Hm & Hne' & Hno).
  cbn [concat app]. rewrite Hm. cbn [negb].
  change (s :: t ++ concat subs) with (concat ((s :: t) :: subs)).
  rewrite (count_m_subs ((s :: t) :: subs) Hok).
  destruct subs as [|sub2 subs'].
  - cbn [length Nat.ltb Nat.leb concat flat_map]. rewrite !app_nil_r. reflexivity.
  - assert (E : (1 <? length ((s :: t) :: sub2 :: subs'))%nat = true) by reflexivity.
    rewrite E. rewrite (split_m_subs _ [] Hok). reflexivity.
Qed.

Theorem one_shape_per_subpath g st fi eo c subs : Forall subpath_ok subs -> subs <> [] ->
  paint_path g st fi eo c (concat subs) = flat_map (paint_single g st fi eo c) subs /\
  length (paint_path g st fi eo c (concat subs)) = length subs.
Proof.
  intros Hok _. rewrite (paint_path_subpaths g st fi eo c subs Hok). split; [reflexivity|].
  induction Hok as [|sub subs Hs Hr IH]; [reflexivity|].
  cbn [flat_map]. rewrite app_length, IH.
  destruct (paint_single_shape g st fi eo c sub) as (k & p & ->); [destruct sub; [contradiction|discriminate]|reflexivity].
Qed.

Open Scope Q_scope.

Lemma pt_eqb_iff p q : pt_eqb p q = true <-> fst p == fst q /\ snd p == snd q.
Proof. unfold pt_eqb. rewrite andb_true_iff, !Qeq_bool_iff. reflexivity. Qed.

(* m l l l h whose transformed corners p0..p3 are distinct at the closing edge and alternate between
   keeping one coordinate and the other: a rectangle spanned by p0 and p2 (were p3 = p0, paint_single would drop that last l
   as redundant before h, and three corners are no rectangle) *)
Lemma quad_is_rect g st fi eo c x0 y0 x1 y1 x2 y2 x3 y3 :
  let path := [SegM x0 y0; SegL x1 y1; SegL x2 y2; SegL x3 y3; SegH] in
  let p0 := mpt c (x0, y0) in let p1 := mpt c (x1, y1) in let p2 := mpt c (x2, y2) in let p3 := mpt c (x3, y3) in
  ~ (fst p3 == fst p0 /\ snd p3 == snd p0) ->
  (fst p0 == fst p1 /\ snd p1 == snd p2 /\ fst p2 == fst p3 /\ snd p3 == snd p0) \/
  (snd p0 == snd p1 /\ fst p1 == fst p2 /\ snd p2 == snd p3 /\ fst p3 == fst p0) ->
  exists sh, paint_path g st fi eo c path = [sh] /\ skind_ sh = KRect /\
             spts sh = [(fst p0, snd p0); (fst p2, snd p0); (fst p2, snd p2); (fst p0, snd p2)].
Proof.
  intros path p0 p1 p2 p3 Hopen Hsq.
  assert (Edrop : pt_eqb p3 p0 = false) by (apply not_true_is_false; rewrite pt_eqb_iff; exact Hopen).
  assert (Eclosed : pt_eqb p0 p0 = true) by (apply pt_eqb_iff; split; reflexivity).
  unfold paint_path, paint_single, path. cbv zeta.
  cbn [is_m negb count_m filter map seg_letter length Nat.ltb Nat.leb Nat.sub skipn letters_eqb letter_eqb andb orb firstn app
       seg_point seg_operands last nth].
  fold p0 p1 p2 p3. rewrite Edrop. cbn [andb letters_eqb letter_eqb orb nth]. rewrite Eclosed.
  destruct Hsq as [(A & B & C & D)|(A & B & C & D)]; apply Qeq_bool_iff in A, B, C, D; rewrite A, B, C, D; cbn [andb];
    rewrite ?orb_true_r; eexists; (split; [reflexivity|split; reflexivity]).
Qed.

