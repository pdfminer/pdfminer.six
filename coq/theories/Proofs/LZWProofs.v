(* C03, LZW at the code level: for ANY admissible factorisation of the data into phrases (greedy or not) the decoder's
   feed, applied to the codes of the phrases after a clear-table code, returns the data.  A phrase is admissible if it
   is a single byte or equals a dictionary entry created by the phrases before it: entry j = phrase j followed by the
   first byte of phrase j+1 -- including the entry that the decoder has not built yet when it meets its code
   (the "KwKwK" case). *)
From Coq Require Import ZArith List Lia.
From PdfV Require Import Base.ListX Model.Filters.
Import ListNotations.
Open Scope Z_scope.

Definition phrase (ws : list (list Z)) (i : nat) : list Z := nth i ws [].
Definition entry (ws : list (list Z)) (j : nat) : list Z := phrase ws j ++ firstn 1 (phrase ws (S j)).

Definition code_ok (ws : list (list Z)) (i : nat) (k : Z) : Prop :=
  (exists b, phrase ws i = [b] /\ 0 <= b < 256 /\ k = b) \/
  (exists j, (j < i)%nat /\ k = 258 + Z.of_nat j /\ phrase ws i = entry ws j).

Fixpoint feed_all (s : lzwst) (ks : list Z) : option (list Z) :=
  match ks with
  | [] => Some []
  | k :: r => match lzw_feed s k with
              | FeedOk x s' => option_map (app x) (feed_all s' r)
              | _ => None
              end
  end.

(* from state s the codes ks are accepted, yield out, and leave the decoder in s' *)
Inductive feeds : lzwst -> list Z -> list Z -> lzwst -> Prop :=
| feeds_nil s : feeds s [] [] s
| feeds_cons s k x s1 ks out s2 : lzw_feed s k = FeedOk x s1 -> feeds s1 ks out s2 -> feeds s (k :: ks) (x ++ out) s2.

Lemma feeds_app s a o1 s1 b o2 s2 : feeds s a o1 s1 -> feeds s1 b o2 s2 -> feeds s (a ++ b) (o1 ++ o2) s2.
Proof.
  induction 1 as [|s k x s1 ks out s' Hk _ IH]; intros Hb; [exact Hb|].
  cbn [app]. rewrite <- app_assoc. exact (feeds_cons _ _ _ _ _ _ _ Hk (IH Hb)).
Qed.

Lemma feeds_feed_all s ks out s' : feeds s ks out s' -> feed_all s ks = Some out.
Proof. induction 1 as [|s k x s1 ks out s' Hk _ IH]; [reflexivity|]. cbn [feed_all]. rewrite Hk, IH. reflexivity. Qed.

Lemma feed_clear s : lzw_feed s 256 = FeedOk [] (mkZ clear_table (Some []) 9).
Proof. reflexivity. Qed.
Lemma feed_eod s : lzw_feed s 257 = FeedOk [] s.
Proof. reflexivity. Qed.

(* the state after a data code that produced x: a new entry, previous phrase + first byte of x, unless there is no
   previous phrase (right after clear-table) *)
Definition grow (s : lzwst) (x : list Z) : lzwst :=
  match zprev s with
  | Some (a :: p) => let t := ztable s ++ [Some ((a :: p) ++ firstn 1 x)] in mkZ t (Some x) (width_after (length t) (znbits s))
  | _ => mkZ (ztable s) (Some x) (znbits s)
  end.

Lemma feed_known s k x : k <> 256 -> k <> 257 -> nth_error (ztable s) (Z.to_nat k) = Some (Some x) ->
  lzw_feed s k = FeedOk x (grow s x).
Proof.
  intros N1 N2 E. unfold lzw_feed, grow. apply Z.eqb_neq in N1, N2. rewrite N1, N2, E.
  destruct (zprev s) as [[|a p]|]; try reflexivity.
  replace (_ <? _)%nat with true; [reflexivity|]. symmetry. apply Nat.ltb_lt, nth_error_Some. congruence.
Qed.

(* the code of the entry that is only now being built: previous phrase + its own first byte *)
Lemma feed_next s k a p : k <> 256 -> k <> 257 -> zprev s = Some (a :: p) -> Z.to_nat k = length (ztable s) ->
  lzw_feed s k = FeedOk (a :: p ++ [a]) (grow s (a :: p ++ [a])).
Proof.
  intros N1 N2 Ep El. unfold lzw_feed, grow. apply Z.eqb_neq in N1, N2. rewrite N1, N2, Ep, El, Nat.ltb_irrefl, Nat.eqb_refl.
  reflexivity.
Qed.

(* decoder state after clear-table and the codes of phrases 0 .. i-1: one dictionary entry behind *)
Definition prev_of (ws : list (list Z)) (i : nat) : list Z := match i with O => [] | S j => phrase ws j end.
Definition Dec (ws : list (list Z)) (i : nat) (s : lzwst) : Prop :=
  ztable s = clear_table ++ map (fun j => Some (entry ws j)) (seq 0 (pred i)) /\ zprev s = Some (prev_of ws i).

Lemma clear_table_length : length clear_table = 258%nat.
Proof. reflexivity. Qed.
Lemma clear_table_byte b : 0 <= b < 256 -> nth_error clear_table (Z.to_nat b) = Some (Some [b]).
Proof.
  intros Hb. unfold clear_table. rewrite nth_error_app1 by (rewrite map_length, seq_length; lia).
  rewrite nth_error_map. rewrite nth_error_nth' with (d := 0%nat) by (rewrite seq_length; lia).
  rewrite seq_nth by lia. cbn [option_map]. f_equal. f_equal. f_equal. lia.
Qed.

Lemma dec_lookup ws i s : Dec ws i s ->
  (forall b, 0 <= b < 256 -> nth_error (ztable s) (Z.to_nat b) = Some (Some [b])) /\
  (forall j, (S j < i)%nat -> nth_error (ztable s) (Z.to_nat (258 + Z.of_nat j)) = Some (Some (entry ws j))) /\
  length (ztable s) = (258 + pred i)%nat.
Proof.
  intros [-> _]. repeat split.
  - intros b Hb. rewrite nth_error_app1 by (rewrite clear_table_length; lia). exact (clear_table_byte b Hb).
  - intros j Hj. rewrite nth_error_app2; rewrite clear_table_length; [|lia].
    replace (Z.to_nat (258 + Z.of_nat j) - 258)%nat with j by lia.
    rewrite nth_error_map, nth_error_nth' with (d := 0%nat) by (rewrite seq_length; lia).
    rewrite seq_nth by lia. reflexivity.
  - rewrite app_length, map_length, seq_length. reflexivity.
Qed.

Lemma dec_grow ws i s : Dec ws i s -> (forall j, i = S j -> phrase ws j <> []) -> Dec ws (S i) (grow s (phrase ws i)).
Proof.
  intros [Ht Hp] Hne. unfold grow. rewrite Hp. destruct i as [|j]; cbn [prev_of]; [split; [exact Ht|reflexivity]|].
  destruct (phrase ws j) as [|a p] eqn:E; [destruct (Hne j eq_refl E)|]. rewrite <- E.
  split; [|reflexivity]. cbn [ztable pred] in *. rewrite Ht, seq_S, map_app, app_assoc. reflexivity.
Qed.

Lemma step_ok ws i s k : (forall j, i = S j -> phrase ws j <> []) -> Dec ws i s -> code_ok ws i k ->
  lzw_feed s k = FeedOk (phrase ws i) (grow s (phrase ws i)).
Proof.
  intros Hne HD Hk. destruct (dec_lookup ws i s HD) as (Lb & Le & Ll).
  destruct Hk as [(b & Hw & Hb & ->)|(j & Hj & -> & Hw)].
  - rewrite Hw. apply feed_known; [lia|lia|exact (Lb b Hb)].
  - destruct i as [|i]; [lia|]. destruct (Nat.eq_dec j i) as [->|N].
    + (* the entry the decoder has not built yet: phrase i+1 = phrase i + its own first byte *)
      destruct HD as [_ Hp]. cbn [prev_of] in Hp. unfold entry in Hw.
      destruct (phrase ws i) as [|a p] eqn:E; [destruct (Hne i eq_refl E)|].
      assert (Hf : firstn 1 (phrase ws (S i)) = [a]) by (rewrite Hw; reflexivity).
      rewrite Hf in Hw. rewrite Hw. apply feed_next; [lia|lia|exact Hp|rewrite Ll; cbn [pred]; lia].
    + rewrite Hw. apply feed_known; [lia|lia|apply Le; lia].
Qed.

Lemma rest_ok ws : (forall t, (t < length ws)%nat -> phrase ws t <> []) ->
  forall ks i s, (i + length ks = length ws)%nat -> Dec ws i s ->
  (forall t, (t < length ks)%nat -> code_ok ws (i + t) (nth t ks 0)) ->
  exists s', feeds s ks (concat (skipn i ws)) s'.
Proof.
  intros Hne. induction ks as [|k ks IH]; intros i s Hl HD Hc; cbn [length] in *.
  - exists s. rewrite skipn_all2 by lia. constructor.
  - assert (Hi : forall j, i = S j -> phrase ws j <> []) by (intros j ->; apply Hne; lia).
    pose proof (Hc 0%nat ltac:(lia)) as Hk. rewrite Nat.add_0_r in Hk.
    destruct (IH (S i) (grow s (phrase ws i))) as (s' & F); [lia|exact (dec_grow ws i s HD Hi)| |].
    + intros t Ht. rewrite Nat.add_succ_comm. exact (Hc (S t) ltac:(lia)).
    + exists s'. rewrite (skipn_nth_error ws i (phrase ws i)) by (apply nth_error_nth'; lia). exact (feeds_cons _ _ _ _ _ _ _ (step_ok ws i s k Hi HD Hk) F).
Qed.

(* coded phrases are not empty: a literal is one byte, an entry extends an earlier phrase *)
Lemma code_ok_nonempty ws (k : nat -> Z) n : (forall t, (t < n)%nat -> code_ok ws t (k t)) ->
  forall t, (t < n)%nat -> phrase ws t <> [].
Proof.
  intros Hc t. induction t as [t IH] using (well_founded_induction lt_wf). intros Ht.
  destruct (Hc t Ht) as [(b & -> & _)|(j & Hj & _ & ->)]; [discriminate|].
  intros E. apply app_eq_nil in E. exact (IH j Hj ltac:(lia) (proj1 E)).
Qed.

(* one segment, from ANY decoder state (the clear-table code resets it) *)
Lemma segment_decodes ws ks s : length ks = length ws ->
  (forall t, (t < length ws)%nat -> code_ok ws t (nth t ks 0)) ->
  exists s', feeds s (256 :: ks) (concat ws) s'.
Proof.
  intros Hl Hc. pose proof (code_ok_nonempty ws (fun t => nth t ks 0) _ Hc) as Hne. destruct (rest_ok ws Hne ks 0 (mkZ clear_table (Some []) 9) Hl) as (s' & F).
  - split; [symmetry; apply app_nil_r|reflexivity].
  - rewrite Hl. exact Hc.
  - exists s'. exact (feeds_cons _ _ _ _ _ _ _ (feed_clear s) F).
Qed.

(* any number of segments, each introduced by a clear-table code (an encoder clears when its table is full) *)
Definition seg_ok (seg : list (list Z) * list Z) : Prop :=
  length (snd seg) = length (fst seg) /\ (forall t, (t < length (fst seg))%nat -> phrase (fst seg) t <> []) /\
  (forall t, (t < length (fst seg))%nat -> code_ok (fst seg) t (nth t (snd seg) 0)).
Theorem lzw_segments_decode : forall segs s, Forall seg_ok segs ->
  exists s', feeds s (flat_map (fun seg => 256 :: snd seg) segs) (concat (flat_map fst segs)) s'.
Proof.
  intros segs s H. revert s. induction H as [|[ws ks] segs (Hl & _ & Hc) _ IH]; intros s; [exists s; constructor|].
  destruct (segment_decodes ws ks s Hl Hc) as (s1 & F1). destruct (IH s1) as (s2 & F2).
  exists s2. cbn [flat_map fst snd]. rewrite concat_app. exact (feeds_app _ _ _ _ _ _ _ F1 F2).
Qed.
