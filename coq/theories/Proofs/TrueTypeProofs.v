(* Lemmas about Model/TrueType.v: the dictionary, format-4 segments (delta and range-offset), the order of
   segments (last covering segment wins), big-endian arrays read back from the bytes a writer puts there, and the
   inversion of the character -> glyph dictionary. *)
From Coq Require Import ZArith List Bool Lia.
From PdfV Require Import Base.ListX Model.Fonts Model.CMaps Model.TrueType Proofs.CMapProofs.
Import ListNotations.
Open Scope Z_scope.

Lemma dget_dset k v d k' : dget (dset k v d) k' = if k' =? k then Some v else dget d k'.
Proof.
  unfold dget. induction d as [|[a b] r IH]; cbn [dset zassoc].
  - reflexivity.
  - destruct (k =? a) eqn:Hka.
    + apply Z.eqb_eq in Hka; subst a. cbn [zassoc]. destruct (k' =? k); reflexivity.
    + cbn [zassoc]. destruct (k' =? a) eqn:Hk'a.
      * apply Z.eqb_eq in Hk'a; subst a. rewrite Z.eqb_sym, Hka. reflexivity.
      * exact IH.
Qed.

Definition covers (sc ec c : Z) : bool := (sc <=? c) && (c <=? ec).

Lemma seg_delta_get sc ec idd d c :
  dget (seg_delta sc ec idd d) c = if covers sc ec c then Some ((c + idd) mod 65536) else dget d c.
Proof.
  unfold seg_delta, pyrange, covers. set (n := Z.to_nat (ec + 1 - sc)).
  replace ((sc <=? c) && (c <=? ec)) with ((sc <=? c) && (c <? sc + Z.of_nat n)) by lia.
  (* run_get speaks of a list of values; a run that stores a function of the key takes n units *)
  rewrite <- (repeat_length tt n).
  exact (run_get dget (fun k _ => dset k ((k + idd) mod 65536)) (fun k _ => (k + idd) mod 65536)
                 (fun us c d => fold_left (fun d c => dset c ((c + idd) mod 65536) d) (zseq c (length us)) d) tt
                 (fun k _ => dget_dset k _) (fun _ _ => eq_refl) (fun _ _ _ _ => eq_refl) (repeat tt n) sc d c).
Qed.

Lemma seg_glyphs_get idd gl start d c :
  dget (seg_glyphs (zseq start (length gl)) gl idd d) c =
  if (start <=? c) && (c <? start + Z.of_nat (length gl))
  then Some (glyph_of (nth (Z.to_nat (c - start)) gl 0) idd) else dget d c.
Proof.
  exact (run_get dget (fun k b => dset k (glyph_of b idd)) (fun _ b => glyph_of b idd)
                 (fun gl c d => seg_glyphs (zseq c (length gl)) gl idd d) 0
                 (fun k b => dget_dset k _) (fun _ _ => eq_refl) (fun _ _ _ _ => eq_refl) gl start d c).
Qed.

(* a format-4 segment as the reader sees it: with a delta only, or with the glyph array its range offset points to *)
Inductive seg := SDelta (sc ec idd : Z) | SGlyphs (sc : Z) (gl : list Z) (idd : Z).
Definition seg_apply (d : zdict) (s : seg) : zdict :=
  match s with
  | SDelta sc ec idd => seg_delta sc ec idd d
  | SGlyphs sc gl idd => seg_glyphs (zseq sc (length gl)) gl idd d
  end.
(* the glyph a segment gives a character, None when the segment does not cover it *)
Definition seg_val (s : seg) (c : Z) : option Z :=
  match s with
  | SDelta sc ec idd => if covers sc ec c then Some ((c + idd) mod 65536) else None
  | SGlyphs sc gl idd =>
      if (sc <=? c) && (c <? sc + Z.of_nat (length gl)) then Some (glyph_of (nth (Z.to_nat (c - sc)) gl 0) idd) else None
  end.
(* the last covering segment wins over acc *)
Fixpoint segs_val (segs : list seg) (c : Z) (acc : option Z) : option Z :=
  match segs with
  | [] => acc
  | s :: r => segs_val r c (match seg_val s c with Some v => Some v | None => acc end)
  end.

Lemma seg_apply_get s d c : dget (seg_apply d s) c = match seg_val s c with Some v => Some v | None => dget d c end.
Proof.
  destruct s as [sc ec idd|sc gl idd]; cbn [seg_apply seg_val].
  - rewrite seg_delta_get. destruct (covers sc ec c); reflexivity.
  - rewrite seg_glyphs_get. destruct ((sc <=? c) && (c <? sc + Z.of_nat (length gl))); reflexivity.
Qed.

Lemma segs_get segs : forall d c, dget (fold_left seg_apply segs d) c = segs_val segs c (dget d c).
Proof.
  induction segs as [|s r IH]; intros d c; cbn [fold_left segs_val].
  - reflexivity.
  - rewrite IH, seg_apply_get. reflexivity.
Qed.

(* the segments the reader sees: those with a range offset take their glyph array from the bytes *)
Fixpoint segs_of (f : list Z) (pos i : Z) (ecs scs idds idrs : list Z) : option (list seg) :=
  match ecs, scs, idds, idrs with
  | ec :: ecs', sc :: scs', idd :: idds', idr :: idrs' =>
      let s := if idr =? 0 then Some (SDelta sc ec (s16 idd))
               else match u16s_at f (pos + 2 * i + idr) (length (pyrange sc (ec + 1))) with
                    | Some gl => Some (SGlyphs sc gl (s16 idd))
                    | None => None
                    end in
      match s, segs_of f pos (i + 1) ecs' scs' idds' idrs' with
      | Some s1, Some r => Some (s1 :: r)
      | _, _ => None
      end
  | _, _, _, _ => Some []
  end.

Lemma pairs_be_length : forall n bs, length bs = (2 * n)%nat -> length (pairs_be bs) = n.
Proof.
  induction n as [|n IH]; intros bs H.
  - destruct bs; [reflexivity | discriminate].
  - destruct bs as [|a [|b r]]; try (cbn in H; lia).
    cbn [pairs_be length]. f_equal. apply IH. cbn in H. lia.
Qed.

Lemma take_at_length f pos n r : take_at f pos n = Some r -> length r = n.
Proof.
  unfold take_at. destruct (pos <? 0); [discriminate|].
  destruct (Z.of_nat (length f) <? pos).
  - destruct n; [intros H; inversion H; reflexivity | discriminate].
  - destruct (Nat.eqb (length (firstn n (skipn (Z.to_nat pos) f))) n) eqn:E; [|discriminate].
    intros H; inversion H; subst r. apply Nat.eqb_eq. exact E.
Qed.

Lemma u16s_at_length f pos n gl : u16s_at f pos n = Some gl -> length gl = n.
Proof.
  unfold u16s_at. destruct (take_at f pos (2 * n)) as [bs|] eqn:E; [|discriminate].
  intros H; inversion H; subst gl. apply pairs_be_length. eapply take_at_length; exact E.
Qed.

Lemma zseq_length : forall n s, length (zseq s n) = n.
Proof. induction n as [|n IH]; intros s; cbn [zseq length]; [reflexivity | rewrite IH; reflexivity]. Qed.

(* the format-4 loop is the fold of seg_apply over the segments the reader sees, and fails exactly when a glyph
   array lies outside the program *)
Lemma fmt4_segs_fold f pos : forall ecs scs idds idrs i d,
  fmt4_segs f pos i ecs scs idds idrs d =
  option_map (fun segs => fold_left seg_apply segs d) (segs_of f pos i ecs scs idds idrs).
Proof.
  induction ecs as [|ec ecs IH]; [reflexivity|]. intros [|sc scs] [|idd idds] [|idr idrs] i d; try reflexivity.
  cbn [fmt4_segs segs_of]. destruct (idr =? 0).
  - rewrite IH. destruct (segs_of f pos (i + 1) ecs scs idds idrs); reflexivity.
  - unfold seg_range, pyrange.
    destruct (u16s_at f (pos + 2 * i + idr) _) as [gl|] eqn:Hg; [|reflexivity].
    apply u16s_at_length in Hg. rewrite zseq_length in Hg.
    rewrite IH. destruct (segs_of f pos (i + 1) ecs scs idds idrs); [|reflexivity].
    cbn [option_map fold_left seg_apply]. rewrite Hg. reflexivity.
Qed.

Definition be16 (v : Z) : list Z := [v / 256; v mod 256].
Definition is_u16 (v : Z) : bool := (0 <=? v) && (v <? 65536).

Lemma flat_map_be16_length l : length (flat_map be16 l) = (2 * length l)%nat.
Proof. induction l as [|v l IH]; cbn [flat_map be16 app length]; [reflexivity | rewrite IH; lia]. Qed.

Lemma take_at_app pre x post : take_at (pre ++ x ++ post) (Z.of_nat (length pre)) (length x) = Some x.
Proof.
  unfold take_at. rewrite app_length.
  replace (Z.of_nat (length pre) <? 0) with false by lia. replace (_ <? Z.of_nat (length pre)) with false by lia.
  rewrite Nat2Z.id, skipn_app_len, firstn_app_len, Nat.eqb_refl by reflexivity. reflexivity.
Qed.

(* an array of 16-bit numbers written big-endian anywhere in a program is read back as written; the writer's
   bytes v / 256 and v mod 256 recombine to v whatever v is *)
(* the three equations are there to be discharged by [rewrite .. by]: the program, the position and the count need
   only be equal, not of this form *)
Lemma u16s_at_mid f a l b pos n :
  f = a ++ flat_map be16 l ++ b -> pos = Z.of_nat (length a) -> n = length l -> u16s_at f pos n = Some l.
Proof.
  intros -> -> ->. unfold u16s_at. rewrite <- flat_map_be16_length, take_at_app.
  f_equal. exact (identity_two_bytes l).
Qed.

Lemma u16_at_mid a v b : u16_at (a ++ be16 v ++ b) (Z.of_nat (length a)) = Some v.
Proof.
  unfold u16_at. change 2%nat with (length (be16 v)). rewrite take_at_app. cbn [be16].
  f_equal. symmetry. apply Z_div_mod_eq_full.
Qed.

Lemma invert_step_get m c g0 g : umap_get (invert_step m (c, g0)) g =
  if (c =? 160) && match umap_get m g0 with Some [32] => true | _ => false end then umap_get m g
  else if g =? g0 then Some [c] else umap_get m g.
Proof. unfold invert_step. destruct (_ && _); reflexivity. Qed.

Lemma invert_sound_gen d : forall m g u,
  umap_get (fold_left invert_step d m) g = Some u ->
  umap_get m g = Some u \/ exists c, In (c, g) d /\ u = [c].
Proof.
  induction d as [|[c g0] r IH]; intros m g u H; cbn [fold_left] in H; [left; exact H|].
  destruct (IH _ _ _ H) as [H1|(c' & Hin & Hu)]; [|right; exists c'; split; [right; exact Hin|exact Hu]].
  rewrite invert_step_get in H1. destruct (_ && _); [left; exact H1|].
  destruct (Z.eqb_spec g g0) as [->|_]; [|left; exact H1].
  injection H1 as <-. right. exists c. split; [left|]; reflexivity.
Qed.

Lemma invert_sound d g u : umap_get (invert d) g = Some u -> exists c, In (c, g) d /\ u = [c].
Proof.
  intros H. destruct (invert_sound_gen d [] g u H) as [H1|H1]; [discriminate | exact H1].
Qed.

Lemma invert_keeps d : forall m g, umap_get m g <> None -> umap_get (fold_left invert_step d m) g <> None.
Proof.
  induction d as [|[c g0] r IH]; intros m g H; cbn [fold_left]; [exact H|].
  apply IH. rewrite invert_step_get. destruct (_ && _); [exact H|]. destruct (g =? g0); [discriminate|exact H].
Qed.

Lemma invert_complete d : forall m c g, In (c, g) d -> umap_get (fold_left invert_step d m) g <> None.
Proof.
  induction d as [|e r IH]; intros m c g Hin; [destruct Hin|].
  cbn [fold_left]. destruct Hin as [->|Hin]; [|exact (IH _ c g Hin)].
  (* U+00A0 is skipped only when the glyph already has the text of a space *)
  apply invert_keeps. rewrite invert_step_get, Z.eqb_refl.
  destruct (_ && _) eqn:E; [|discriminate]. apply andb_prop in E as [_ E].
  destruct (umap_get m g); [discriminate|discriminate E].
Qed.

(* the body of a format-4 subtable as a writer lays it out: segCountX2, three search fields, end codes, a reserved
   word, start codes, deltas, range offsets, then the glyph arrays and whatever follows *)
Definition fmt4_body (x1 x2 x3 pad : Z) (ecs scs idds idrs : list Z) (tail : list Z) : list Z :=
  (be16 (2 * Z.of_nat (length ecs)) ++ be16 x1 ++ be16 x2 ++ be16 x3) ++ flat_map be16 ecs ++ be16 pad ++
  flat_map be16 scs ++ flat_map be16 idds ++ flat_map be16 idrs ++ tail.

(* only the three length equalities matter: the arrays may hold any integers *)
Lemma fmt4_layout pre x1 x2 x3 pad ecs scs idds idrs tail d :
  length scs = length ecs -> length idds = length ecs -> length idrs = length ecs ->
  let f := pre ++ fmt4_body x1 x2 x3 pad ecs scs idds idrs tail in
  let p := Z.of_nat (length pre) in
  fmt4 f p d = fmt4_segs f (p + 8 + 6 * Z.of_nat (length ecs) + 2) 0 ecs scs idds idrs d.
Proof.
  intros Hs Hd Hr f p. set (n := length ecs) in *.
  set (H := be16 (2 * Z.of_nat n) ++ be16 x1 ++ be16 x2 ++ be16 x3).
  set (E := flat_map be16 ecs). set (Sc := flat_map be16 scs). set (D := flat_map be16 idds). set (R := flat_map be16 idrs).
  assert (LH : length H = 8%nat) by reflexivity.
  assert (LE : length E = (2 * n)%nat) by apply flat_map_be16_length.
  assert (LS : length Sc = (2 * n)%nat) by (unfold Sc; rewrite flat_map_be16_length, Hs; reflexivity).
  assert (LD : length D = (2 * n)%nat) by (unfold D; rewrite flat_map_be16_length, Hd; reflexivity).
  assert (Hf : f = pre ++ H ++ E ++ be16 pad ++ Sc ++ D ++ R ++ tail).
  { unfold f, fmt4_body. fold n H E Sc D R. rewrite <- ?app_assoc. reflexivity. }
  clearbody f. unfold fmt4.
  assert (U0 : u16_at f p = Some (2 * Z.of_nat n)).
  { rewrite Hf. unfold H. rewrite <- !app_assoc. apply u16_at_mid. }
  assert (T0 : take_at f p 8 = Some H).
  { rewrite Hf. change 8%nat with (length H). apply take_at_app. }
  rewrite U0, T0.
  replace (Z.to_nat (2 * Z.of_nat n / 2)) with n by (rewrite Z.mul_comm, Z.div_mul by lia; lia).
  rewrite (u16s_at_mid f (pre ++ H) ecs (be16 pad ++ Sc ++ D ++ R ++ tail)),
          (u16s_at_mid f (pre ++ H ++ E ++ be16 pad) scs (D ++ R ++ tail)),
          (u16s_at_mid f (pre ++ H ++ E ++ be16 pad ++ Sc) idds (R ++ tail)),
          (u16s_at_mid f (pre ++ H ++ E ++ be16 pad ++ Sc ++ D) idrs tail)
    by first [ rewrite Hf, <- ?app_assoc; reflexivity             (* prefix, array and suffix make up f *)
             | rewrite !app_length; cbn [be16 length]; lia       (* the position is the length of the prefix *)
             | symmetry; assumption | reflexivity ].
  replace (p + 8 + 3 * (2 * Z.of_nat n) + 2) with (p + 8 + 6 * Z.of_nat n + 2) by lia. reflexivity.
Qed.
