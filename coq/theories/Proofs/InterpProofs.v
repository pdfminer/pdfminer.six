(* Model/Interp.v: one equation for a step on an operator, one frame lemma for the operators that leave the matrices
   and the graphics stack alone, q/Q nesting, and the glyph loop against the ISO displacement. *)
From Coq Require Import QArith List Lia.
From PdfV Require Import Base.Num Gen.Geom Gen.TextOps Model.Interp.
Import ListNotations.

(* case analysis on the scrutinee of some match in the goal *)
Ltac break_match :=
  match goal with
  | |- context [match ?x with _ => _ end] => destruct x
  end.

(* The fields no operator other than q, Q, cm and Do touches. *)
Definition core (s : istate) := (ctm s, devctm s, gstack s).
Definition keeps_core (k : opname) : bool :=
  match k with Kq | KQ | Kcm | KDo => false | _ => true end.

Lemma do_TJ_core s v : core (do_TJ s v) = core s.
Proof.
  unfold do_TJ. destruct (tfont (ts s)), v; try reflexivity.
  destruct (render_params QOps _ _ _ _ _ _) as [[[[? ?] ?] ?] ?].
  destruct (show_seq _ _ _ _ _ _ _ _ _ _ _ _ _). reflexivity.
Qed.

Lemma do_setcolor_core b s : core (do_setcolor b s) = core s.
Proof. unfold do_setcolor. repeat break_match; reflexivity. Qed.

Section WithRes.
  Variable res : resources.
  Variable run_form : M6 -> resources -> list item -> list event -> list event.

  (* [step] singles out [Kunknown], but with no operands and no effect it is an instance of the general case *)
  Lemma step_op s k : step res run_form s (IOp k) =
    match nargs k with
    | O => apply_op res run_form k [] s
    | S _ => let s1 := set_args s (droplast (nargs k) (argstack s)) in
             if Nat.eqb (length (lastn (nargs k) (argstack s))) (nargs k)
             then apply_op res run_form k (lastn (nargs k) (argstack s)) s1 else s1
    end.
  Proof. destruct k; reflexivity. Qed.

  (* every leaf of [apply_op] is the state itself, a setter of another field, or one of the two helpers above *)
  Lemma apply_op_core k args s : keeps_core k = true -> core (apply_op res run_form k args s) = core s.
  Proof.
    destruct k; try discriminate; intros _; cbn [apply_op]; repeat break_match;
      rewrite ?do_TJ_core, ?do_setcolor_core; reflexivity.
  Qed.

  (* between operators the shared device carries the interpreter's own matrix *)
  Definition sync (s : istate) : Prop := devctm s = ctm s.

  Lemma apply_op_sync k args s : sync s -> sync (apply_op res run_form k args s).
  Proof.
    unfold sync. intros H. destruct (keeps_core k) eqn:E.
    - pose proof (apply_op_core k args s E) as C. injection C as -> ->. exact H.
    - destruct k; try discriminate E; cbn [apply_op]; repeat break_match; try exact H; reflexivity.
  Qed.

  Lemma step_sync s it : sync s -> sync (step res run_form s it).
  Proof.
    intros H. destruct it as [v|k]; [exact H|]. rewrite step_op.
    destruct (nargs k); [|cbn zeta; destruct (Nat.eqb _ _)]; try apply apply_op_sync; exact H.
  Qed.

  Lemma run_sync prog : forall s, sync s -> sync (run_items res run_form s prog).
  Proof. induction prog as [|it r IH]; intros s H; [exact H|]. cbn. apply IH, step_sync, H. Qed.

  (* everything of the state except the events produced so far *)
  Definition same_state (a b : istate) : Prop :=
    ctm a = ctm b /\ devctm a = devctm b /\ ts a = ts b /\ gs a = gs b /\ gstack a = gstack b /\
    curpath a = curpath b /\ argstack a = argstack b /\ scs a = scs b /\ ncs a = ncs b.

  Theorem do_missing s n : assocZ n (res_xobjs res) = None -> apply_op res run_form KDo [OName n] s = s.
  Proof. intros H. cbn [apply_op]. rewrite H. reflexivity. Qed.

  Definition numeric_op (k : opname) : bool :=
    match k with
    | Kcm | Kw | Km | Kl | Kc | Kv | Ky | Kre | KG | Kg | KRG | Krg | KK | Kk
    | KTc | KTw | KTz | KTL | KTs | KTd | KTD | KTm => true
    | _ => false
    end.

  Lemma all_floats_none_cases l : all_floats l = None ->
    match l with
    | [a] => sfloat a = None
    | [a; b] => sfloat a = None \/ sfloat b = None
    | _ => True
    end.
  Proof.
    destruct l as [|a [|b [|c r]]]; cbn; auto.
    - destruct (sfloat a); [discriminate|auto].
    - destruct (sfloat a); [|auto]. destruct (sfloat b); [discriminate|auto].
  Qed.

  (* given the right NUMBER of operands, one of which is not a number, the operator does nothing *)
  Theorem illtyped_noop k args s : numeric_op k = true -> length args = nargs k ->
    all_floats args = None -> apply_op res run_form k args s = s.
  Proof.
    intros Hk Hl Hn. pose proof (all_floats_none_cases args Hn) as C.
    destruct k; try discriminate; cbn [apply_op]; try (rewrite Hn; reflexivity);
      (* the one- and two-operand operators are written with explicit patterns: C is [sfloat a = None] for the
         former, a disjunction for the latter *)
      destruct args as [|a [|b [|]]]; try discriminate Hl;
      first [rewrite C; reflexivity | destruct C as [C|C]; rewrite C; [|destruct (sfloat a)]; reflexivity].
  Qed.

  (* nesting depth after each item never drops below zero and ends at zero *)
  Fixpoint balanced (prog : list item) (d : nat) : bool :=
    match prog with
    | [] => Nat.eqb d 0
    | IOp Kq :: r => balanced r (S d)
    | IOp KQ :: r => match d with O => false | S d' => balanced r d' end
    | _ :: r => balanced r d
    end.

  Lemma apply_op_gstack k args s : k <> Kq -> k <> KQ -> gstack (apply_op res run_form k args s) = gstack s.
  Proof.
    intros Hq HQ. destruct (keeps_core k) eqn:E.
    - pose proof (apply_op_core k args s E) as C. injection C as _ _ ->. reflexivity.
    - destruct k; try discriminate E; try congruence; cbn [apply_op]; repeat break_match; reflexivity.
  Qed.

  Lemma step_gstack_other s k : k <> Kq -> k <> KQ -> gstack (step res run_form s (IOp k)) = gstack s.
  Proof.
    intros Hq HQ. rewrite step_op.
    destruct (nargs k); [|cbn zeta; destruct (Nat.eqb _ _)]; rewrite ?apply_op_gstack by assumption; reflexivity.
  Qed.

  Lemma run_balanced : forall prog d s base new,
    balanced prog d = true -> gstack s = new ++ base -> length new = d ->
    gstack (run_items res run_form s prog) = base.
  Proof.
    induction prog as [|it r IH]; intros d s base new Hb Hg Hl.
    - cbn in Hb. apply Nat.eqb_eq in Hb. subst d. destruct new; [exact Hg|discriminate].
    - cbn [run_items fold_left]. destruct it as [v|k].
      + apply (IH d _ base new Hb); [exact Hg|exact Hl].
      + destruct k; cbn [balanced] in Hb;
          try (apply (IH d _ base new Hb); [|exact Hl]; rewrite step_gstack_other by discriminate; exact Hg).
        * (* q *) apply (IH (S d) _ base ((ctm s, ts s, gs s) :: new) Hb); [|cbn; lia].
          unfold step. cbn [nargs apply_op gstack]. rewrite Hg. reflexivity.
        * (* Q *) destruct d as [|d']; [discriminate|]. destruct new as [|[[c t] g] new']; [discriminate|].
          apply (IH d' _ base new' Hb); [|cbn in Hl; lia].
          unfold step. cbn [nargs apply_op]. rewrite Hg. reflexivity.
  Qed.
End WithRes.

Open Scope Q_scope.

(* ISO 32000-1 9.4.4: tx = (w0 * Tfs + Tc + Tw) * Th, Tw for the single-byte code 32 only *)
Definition iso_tx (f : font) (fs tc tw th : Q) (cid : Z) : Q :=
  (fwidth f cid * fs + tc + (if Z.eqb cid 32 then tw else 0)) * th.

Fixpoint iso_positions (f : font) (fs tc tw th : Q) (cids : list Z) (x : Q) : list Q :=
  match cids with [] => [] | c :: r => x :: iso_positions f fs tc tw th r (x + iso_tx f fs tc tw th c) end.

(* the x offsets at which the model places the glyphs of one string *)
Fixpoint model_positions (f : font) (fs scaling charspace wordspace : Q) (cids : list Z) (x : Q) : list Q :=
  match cids with
  | [] => []
  | cid :: r =>
      let x1 := x + ltchar_adv QOps (fwidth f cid) fs scaling + charspace in
      let x2 := if Z.eqb cid 32 && negb (Qeq_bool wordspace 0) then x1 + wordspace else x1 in
      x :: model_positions f fs scaling charspace wordspace r x2
  end.

Lemma show_cids_events f fs sc cs ws rise m nc : forall cids x y o,
  snd (show_cids f fs sc cs ws rise m nc cids x y o) =
  rev (map (fun cx => EGlyph (fst cx) (translate_matrix QOps m (snd cx, y))
                             (ltchar_adv QOps (fwidth f (fst cx)) fs sc) (fid f) fs rise (fdescent f) nc)
           (combine cids (model_positions f fs sc cs ws cids x))) ++ o.
Proof.
  induction cids as [|c r IH]; intros x y o; [reflexivity|].
  cbn [show_cids model_positions combine map rev]. rewrite IH. rewrite <- app_assoc. reflexivity.
Qed.

Lemma positions_eq f fs tc tw th : forall cids x x',
  x == x' ->
  Forall2 Qeq (model_positions f fs th (tc * th) (tw * th) cids x) (iso_positions f fs tc tw th cids x').
Proof.
  induction cids as [|c r IH]; intros x x' Hx; [constructor|].
  cbn [model_positions iso_positions]. constructor; [exact Hx|]. apply IH.
  unfold iso_tx, ltchar_adv. cbn [nmul QOps].
  destruct (Z.eqb c 32) eqn:E; cbn [andb].
  - destruct (Qeq_bool (tw * th) 0) eqn:Ez; cbn [negb].
    + (* a word space of zero is not added by the model; in the ISO sum it adds nothing *)
      apply Qeq_bool_iff in Ez. rewrite Hx.
      setoid_replace ((fwidth f c * fs + tc + tw) * th) with (fwidth f c * fs * th + tc * th + tw * th) by ring.
      rewrite Ez. ring.
    + rewrite Hx. ring.
  - rewrite Hx. ring.
Qed.

