(* Algebraic laws of the generated matrix helpers (Gen/Geom.v), for every
   commutative ring, and the tight-hull theorem over Q. *)
From Coq Require Import QArith Lqa List.
Import ListNotations.
From PdfV Require Import Base.Num Gen.Geom.

Section RingLaws.
  Variable R : Type.
  Variables (rO rI : R) (radd rmul rsub : R -> R -> R) (ropp : R -> R).
  Variable Rth : ring_theory rO rI radd rmul rsub ropp (@eq R).
  Add Ring Rring : Rth.

  (* only the ring operations of the record matter for these laws; the order
     and conversion fields are arbitrary *)
  Variables (dv : R -> R -> R) (le lt eqb : R -> R -> bool) (ofz : Z -> R) (tr fl : R -> Z).
  Let o : NumOps R := mkNumOps R radd rsub rmul dv ropp le lt eqb ofz tr fl.
  Notation idm := (rI, rO, rO, rI, rO, rO).
  Notation M := (R * R * R * R * R * R)%type.
  Notation P := (R * R)%type.

  (* every law below: open the tuples, unfold the helpers, and prove each component by ring *)
  Ltac crush :=
    repeat match goal with
           | m : M |- _ => destruct m as [[[[[? ?] ?] ?] ?] ?]
           | p : P |- _ => destruct p as [? ?]
           end;
    cbv [mult_matrix translate_matrix apply_matrix_pt apply_matrix_norm o
         nadd nsub nmul fst snd];
    repeat match goal with |- (_, _) = (_, _) => apply f_equal2 end; ring.

  Lemma mult_assoc (m2 m1 m0 : M) :
    mult_matrix o m2 (mult_matrix o m1 m0) = mult_matrix o (mult_matrix o m2 m1) m0.
  Proof. crush. Qed.

  Lemma mult_id_l (m : M) : mult_matrix o idm m = m.
  Proof. crush. Qed.

  Lemma mult_id_r (m : M) : mult_matrix o m idm = m.
  Proof. crush. Qed.

  Lemma apply_mult (m1 m0 : M) (p : P) :
    apply_matrix_pt o (mult_matrix o m1 m0) p = apply_matrix_pt o m0 (apply_matrix_pt o m1 p).
  Proof. crush. Qed.

  Lemma apply_id (p : P) : apply_matrix_pt o idm p = p.
  Proof. crush. Qed.

  Lemma translate_as_mult (m : M) (v : P) :
    translate_matrix o m v = mult_matrix o (rI, rO, rO, rI, fst v, snd v) m.
  Proof. crush. Qed.

  Lemma translate_apply (m : M) (v p : P) :
    apply_matrix_pt o (translate_matrix o m v) p
    = apply_matrix_pt o m (radd (fst p) (fst v), radd (snd p) (snd v)).
  Proof. crush. Qed.

  Lemma norm_is_difference (m : M) (v : P) :
    apply_matrix_norm o m v
    = (rsub (fst (apply_matrix_pt o m v)) (fst (apply_matrix_pt o m (rO, rO))),
       rsub (snd (apply_matrix_pt o m v)) (snd (apply_matrix_pt o m (rO, rO)))).
  Proof. crush. Qed.
End RingLaws.

Lemma nmin_Q_spec a b : (nmin QOps a b <= a /\ nmin QOps a b <= b /\ (nmin QOps a b = a \/ nmin QOps a b = b))%Q.
Proof.
  unfold nmin; simpl. destruct (Qltb b a) eqn:E; [apply Qltb_lt in E | apply Qltb_ge in E];
  repeat split; auto; lra.
Qed.

Lemma nmax_Q_spec a b : (a <= nmax QOps a b /\ b <= nmax QOps a b /\ (nmax QOps a b = a \/ nmax QOps a b = b))%Q.
Proof.
  unfold nmax; simpl. destruct (Qltb a b) eqn:E; [apply Qltb_lt in E | apply Qltb_ge in E];
  repeat split; auto; lra.
Qed.

Lemma nabs_Q_spec a : ((0 <= a -> nabs QOps a == a) /\ (a <= 0 -> nabs QOps a == - a))%Q.
Proof.
  unfold nabs. cbn [nlt nofZ nopp QOps].
  destruct (Qltb a (inject_Z 0)) eqn:E; [apply Qltb_lt in E|apply Qltb_ge in E];
    change (inject_Z 0) with 0%Q in E; split; intros H; lra.
Qed.

Lemma min4_spec a b c d :
  let m := nmin QOps (nmin QOps (nmin QOps a b) c) d in
  (m <= a /\ m <= b /\ m <= c /\ m <= d)%Q /\ (m = a \/ m = b \/ m = c \/ m = d).
Proof.
  intro m. subst m.
  destruct (nmin_Q_spec a b) as (H1 & H2 & H3).
  destruct (nmin_Q_spec (nmin QOps a b) c) as (H4 & H5 & H6).
  destruct (nmin_Q_spec (nmin QOps (nmin QOps a b) c) d) as (H7 & H8 & H9).
  split; [repeat split; lra|].
  destruct H9 as [-> | ->]; auto. destruct H6 as [-> | ->]; auto. destruct H3 as [-> | ->]; auto.
Qed.

Lemma max4_spec a b c d :
  let m := nmax QOps (nmax QOps (nmax QOps a b) c) d in
  (a <= m /\ b <= m /\ c <= m /\ d <= m)%Q /\ (m = a \/ m = b \/ m = c \/ m = d).
Proof.
  intro m. subst m.
  destruct (nmax_Q_spec a b) as (H1 & H2 & H3).
  destruct (nmax_Q_spec (nmax QOps a b) c) as (H4 & H5 & H6).
  destruct (nmax_Q_spec (nmax QOps (nmax QOps a b) c) d) as (H7 & H8 & H9).
  split; [repeat split; lra|].
  destruct H9 as [-> | ->]; auto. destruct H6 as [-> | ->]; auto. destruct H3 as [-> | ->]; auto.
Qed.

Definition corners (r : Q * Q * Q * Q) : list (Q * Q) :=
  let '(x0, y0, x1, y1) := r in [(x0, y0); (x1, y0); (x1, y1); (x0, y1)]%list.

Lemma rect_hull (m : Q * Q * Q * Q * Q * Q) (r : Q * Q * Q * Q) :
  let '(X0, Y0, X1, Y1) := apply_matrix_rect QOps m r in
  let cs := List.map (apply_matrix_pt QOps m) (corners r) in
  (forall p, List.In p cs -> X0 <= fst p /\ fst p <= X1 /\ Y0 <= snd p /\ snd p <= Y1)%Q
  /\ (exists p, List.In p cs /\ fst p = X0) /\ (exists p, List.In p cs /\ fst p = X1)
  /\ (exists p, List.In p cs /\ snd p = Y0) /\ (exists p, List.In p cs /\ snd p = Y1).
Proof.
  destruct r as [[[x0 y0] x1] y1].
  unfold apply_matrix_rect.
  destruct (apply_matrix_pt QOps m (x0, y0)) as [l1 b1] eqn:E1.
  destruct (apply_matrix_pt QOps m (x1, y0)) as [r1 b2] eqn:E2.
  destruct (apply_matrix_pt QOps m (x1, y1)) as [r2 t1] eqn:E3.
  destruct (apply_matrix_pt QOps m (x0, y1)) as [l2 t2] eqn:E4.
  cbn [corners List.map]. rewrite E1, E2, E3, E4.
  destruct (min4_spec l1 l2 r1 r2) as [(A1 & A2 & A3 & A4) A5].
  destruct (min4_spec b1 b2 t1 t2) as [(B1 & B2 & B3 & B4) B5].
  destruct (max4_spec l1 l2 r1 r2) as [(C1 & C2 & C3 & C4) C5].
  destruct (max4_spec b1 b2 t1 t2) as [(D1 & D2 & D3 & D4) D5].
  cbv zeta in *.
  split; [| repeat split].
  - intros p [<- | [<- | [<- | [<- | []]]]]; cbn [fst snd]; repeat split; assumption.
  - destruct A5 as [-> | [-> | [-> | ->]]];
      [exists (l1, b1) | exists (l2, t2) | exists (r1, b2) | exists (r2, t1)]; cbn; auto 6.
  - destruct C5 as [-> | [-> | [-> | ->]]];
      [exists (l1, b1) | exists (l2, t2) | exists (r1, b2) | exists (r2, t1)]; cbn; auto 6.
  - destruct B5 as [-> | [-> | [-> | ->]]];
      [exists (l1, b1) | exists (r1, b2) | exists (r2, t1) | exists (l2, t2)]; cbn; auto 6.
  - destruct D5 as [-> | [-> | [-> | ->]]];
      [exists (l1, b1) | exists (r1, b2) | exists (r2, t1) | exists (l2, t2)]; cbn; auto 6.
Qed.
