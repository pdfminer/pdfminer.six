(* C03: ASCII85 -- the decoder (ascii85decode around the model of base64.a85decode) inverts
   every conforming encoding: full groups, the z shorthand, white space anywhere, a partial final
   group, the ~> end marker (optionally <~ at the start). *)
From Coq Require Import ZArith List Bool Lia.
From PdfV Require Import Model.Filters Proofs.FilterProofs.
Import ListNotations.
Open Scope Z_scope.

Definition val4 (b0 b1 b2 b3 : Z) : Z := ((b0 * 256 + b1) * 256 + b2) * 256 + b3.

(* base-85 digits, most significant first, as characters *)
Definition d4 (v : Z) : Z := 33 + v / 85 / 85 / 85 / 85.
Definition d3 (v : Z) : Z := 33 + (v / 85 / 85 / 85) mod 85.
Definition d2 (v : Z) : Z := 33 + (v / 85 / 85) mod 85.
Definition d1 (v : Z) : Z := 33 + (v / 85) mod 85.
Definition d0 (v : Z) : Z := 33 + v mod 85.

(* All the base-85 arithmetic below is linear in the digits once this is known. *)
Lemma base85 v :
  v = 85 * (85 * (85 * (85 * (d4 v - 33) + (d3 v - 33)) + (d2 v - 33)) + (d1 v - 33)) + (d0 v - 33) /\
  33 <= d3 v <= 117 /\ 33 <= d2 v <= 117 /\ 33 <= d1 v <= 117 /\ 33 <= d0 v <= 117.
Proof.
  assert (E : forall x, x = 85 * (x / 85) + x mod 85 /\ 0 <= x mod 85 < 85).
  { intros x. split; [apply Z_div_mod_eq_full|apply Z.mod_pos_bound; reflexivity]. }
  unfold d4, d3, d2, d1, d0.
  pose proof (E v). pose proof (E (v / 85)). pose proof (E (v / 85 / 85)). pose proof (E (v / 85 / 85 / 85)). lia.
Qed.

Lemma digits_value v : acc5 [d4 v; d3 v; d2 v; d1 v; d0 v] = v.
Proof. unfold acc5. cbn [fold_left]. pose proof (base85 v). lia. Qed.

Lemma digit_range v : 0 <= v < 4294967296 ->
  (33 <= d4 v <= 117) /\ (33 <= d3 v <= 117) /\ (33 <= d2 v <= 117) /\ (33 <= d1 v <= 117) /\ (33 <= d0 v <= 117).
Proof. pose proof (base85 v). lia. Qed.

(* partial final groups: the decoder pads the digits with 'u' (84), which raises the value by less than
   85^j, hence by less than 256^j: the bytes above the lowest j are not touched *)
Lemma pad_range v :
  v <= acc5 [d4 v; d3 v; d2 v; d1 v; 117] < v + 256 /\
  v <= acc5 [d4 v; d3 v; d2 v; 117; 117] < v + 65536 /\
  v <= acc5 [d4 v; d3 v; 117; 117; 117] < v + 16777216.
Proof. unfold acc5. cbn [fold_left]. pose proof (base85 v). lia. Qed.

Lemma pack4_val b0 b1 b2 b3 : byte b0 -> byte b1 -> byte b2 -> byte b3 ->
  pack4 (val4 b0 b1 b2 b3) = [b0; b1; b2; b3] /\ 0 <= val4 b0 b1 b2 b3 < 4294967296.
Proof.
  unfold byte, pack4, val4. intros H0 H1 H2 H3. split; [|lia].
  repeat f_equal; Z.to_euclidean_division_equations; lia.
Qed.

Lemma pack4_near b0 b1 b2 w : byte b0 -> byte b1 -> byte b2 ->
  (val4 b0 b1 b2 0 <= w < val4 b0 b1 b2 0 + 256 -> w < 4294967296 /\ firstn 3 (pack4 w) = [b0; b1; b2]) /\
  (val4 b0 b1 0 0 <= w < val4 b0 b1 0 0 + 65536 -> w < 4294967296 /\ firstn 2 (pack4 w) = [b0; b1]) /\
  (val4 b0 0 0 0 <= w < val4 b0 0 0 0 + 16777216 -> w < 4294967296 /\ firstn 1 (pack4 w) = [b0]).
Proof.
  unfold byte, pack4, val4. cbn [firstn]. intros H0 H1 H2.
  repeat split; try lia; repeat f_equal; Z.to_euclidean_division_equations; lia.
Qed.

Definition is_digit85 (x : Z) : Prop := 33 <= x <= 117.

Lemma loop_ws c r dec curr : a85_ignore c = true -> a85_loop (c :: r) dec curr = a85_loop r dec curr.
Proof.
  intros H. cbn [a85_loop]. rewrite H.
  unfold a85_ignore in H. rewrite !orb_true_iff, !Z.eqb_eq in H.
  replace (33 <=? c) with false by (symmetry; apply Z.leb_gt; lia).
  replace (c =? 122) with false by (symmetry; apply Z.eqb_neq; lia). reflexivity.
Qed.

Lemma loop_digit x r dec curr : is_digit85 x ->
  a85_loop (x :: r) dec curr =
  if (length (curr ++ [x]) =? 5)%nat
  then if acc5 (curr ++ [x]) <? 4294967296 then a85_loop r (dec ++ pack4 (acc5 (curr ++ [x]))) [] else None
  else a85_loop r dec (curr ++ [x]).
Proof.
  intros [Hl Hu]. cbn [a85_loop]. apply Z.leb_le in Hl, Hu. rewrite Hl, Hu. reflexivity.
Qed.

Lemma loop_five a b c d e r dec :
  is_digit85 a -> is_digit85 b -> is_digit85 c -> is_digit85 d -> is_digit85 e ->
  acc5 [a; b; c; d; e] < 4294967296 ->
  a85_loop (a :: b :: c :: d :: e :: r) dec [] = a85_loop r (dec ++ pack4 (acc5 [a; b; c; d; e])) [].
Proof.
  intros Ha Hb Hc Hd He Hv. do 5 (rewrite loop_digit by assumption; cbn [app length Nat.eqb]).
  apply Z.ltb_lt in Hv. rewrite Hv. reflexivity.
Qed.

Lemma loop_digits ds : Forall is_digit85 ds -> forall dec curr, (length (curr ++ ds) < 5)%nat ->
  a85_loop ds dec curr = Some (dec, curr ++ ds).
Proof.
  induction 1 as [|x ds Hx _ IH]; intros dec curr Hl; [rewrite app_nil_r; reflexivity|].
  replace (curr ++ x :: ds) with ((curr ++ [x]) ++ ds) in * by (rewrite <- app_assoc; reflexivity).
  rewrite loop_digit by exact Hx. rewrite app_length in Hl.
  replace (length (curr ++ [x]) =? 5)%nat with false by (symmetry; apply Nat.eqb_neq; lia).
  apply IH. rewrite app_length. exact Hl.
Qed.

(* the digit stream with ignorable white space anywhere *)
Inductive Inter : list Z -> list Z -> Prop :=
| InterNil : Inter [] []
| InterWs : forall c ds t, a85_ignore c = true -> Inter ds t -> Inter ds (c :: t)
| InterD : forall x ds t, a85_ignore x = false -> Inter ds t -> Inter (x :: ds) (x :: t).

Lemma loop_inter ds t : Inter ds t -> forall s dec curr,
  a85_loop (t ++ s) dec curr = a85_loop (ds ++ s) dec curr.
Proof.
  induction 1 as [|c ds t Hc H IH|x ds t Hx H IH]; intros s dec curr.
  - reflexivity.
  - cbn [app]. rewrite loop_ws by exact Hc. apply IH.
  - cbn [app a85_loop]. rewrite Hx.
    destruct ((33 <=? x) && (x <=? 117)).
    + destruct (length (curr ++ [x]) =? 5)%nat; [destruct (acc5 (curr ++ [x]) <? 4294967296)|]; try reflexivity; apply IH.
    + destruct (x =? 122); [destruct curr; [apply IH|reflexivity]|reflexivity].
Qed.

Inductive item := IGroup (b0 b1 b2 b3 : Z) | IZero.
Definition item_ok (i : item) : Prop :=
  match i with IGroup b0 b1 b2 b3 => byte b0 /\ byte b1 /\ byte b2 /\ byte b3 | IZero => True end.
Definition item_digits (i : item) : list Z :=
  match i with
  | IGroup b0 b1 b2 b3 => let v := val4 b0 b1 b2 b3 in [d4 v; d3 v; d2 v; d1 v; d0 v]
  | IZero => [122]
  end.
Definition item_bytes (i : item) : list Z :=
  match i with IGroup b0 b1 b2 b3 => [b0; b1; b2; b3] | IZero => [0; 0; 0; 0] end.

Lemma loop_items items : Forall item_ok items -> forall s dec,
  a85_loop (flat_map item_digits items ++ s) dec [] = a85_loop s (dec ++ flat_map item_bytes items) [].
Proof.
  induction 1 as [|i r Hi Hr IH]; intros s dec.
  - cbn. rewrite app_nil_r. reflexivity.
  - cbn [flat_map]. rewrite <- app_assoc, (app_assoc dec). destruct i as [b0 b1 b2 b3|].
    + destruct Hi as (H0 & H1 & H2 & H3). cbn [item_digits item_bytes app].
      destruct (pack4_val b0 b1 b2 b3 H0 H1 H2 H3) as [Hp Hv].
      destruct (digit_range _ Hv) as (R4 & R3 & R2 & R1 & R0).
      rewrite loop_five by (try assumption; rewrite digits_value; apply Hv).
      rewrite digits_value, Hp. apply IH.
    + apply IH.
Qed.

Inductive final := F0 | F1 (b0 : Z) | F2 (b0 b1 : Z) | F3 (b0 b1 b2 : Z).
Definition final_ok (f : final) : Prop :=
  match f with F0 => True | F1 a => byte a | F2 a b => byte a /\ byte b | F3 a b c => byte a /\ byte b /\ byte c end.
Definition final_digits (f : final) : list Z :=
  match f with
  | F0 => []
  | F1 a => let v := val4 a 0 0 0 in [d4 v; d3 v]
  | F2 a b => let v := val4 a b 0 0 in [d4 v; d3 v; d2 v]
  | F3 a b c => let v := val4 a b c 0 in [d4 v; d3 v; d2 v; d1 v]
  end.
Definition final_bytes (f : final) : list Z :=
  match f with F0 => [] | F1 a => [a] | F2 a b => [a; b] | F3 a b c => [a; b; c] end.

Definition finish (r : option (list Z * list Z)) : fres :=
  match r with
  | Some (decoded, curr) => FOk (firstn (length decoded - (4 - length curr)) decoded)
  | None => FErr EValue
  end.

Lemma loop_partial a b c d e k dec :
  is_digit85 a -> is_digit85 b -> is_digit85 c -> is_digit85 d -> is_digit85 e ->
  acc5 [a; b; c; d; e] < 4294967296 -> (k <= 4)%nat ->
  finish (a85_loop (a :: b :: c :: d :: e :: repeat 117 k) dec []) = FOk (dec ++ firstn k (pack4 (acc5 [a; b; c; d; e]))).
Proof.
  intros Ha Hb Hc Hd He Hv Hk. rewrite loop_five by assumption.
  rewrite loop_digits.
  2: { apply Forall_forall. intros x Hx. apply repeat_spec in Hx. subst x. split; discriminate. }
  2: { cbn [app]. rewrite repeat_length. lia. }
  cbn [app finish]. rewrite repeat_length, app_length, firstn_app.
  set (pk := pack4 _). change (length pk) with 4%nat.
  replace (length dec + 4 - (4 - k) - length dec)%nat with k by lia.
  rewrite firstn_all2 by lia. reflexivity.
Qed.

Lemma loop_final f dec : final_ok f ->
  finish (a85_loop (final_digits f ++ [117; 117; 117; 117]) dec []) = FOk (dec ++ final_bytes f).
Proof.
  assert (Hu : is_digit85 117) by (split; discriminate).
  assert (B0 : byte 0) by (split; [discriminate|reflexivity]).
  destruct f as [|a|a b|a b c]; intros Hok; cbn [final_ok final_digits final_bytes app] in *.
  - rewrite loop_digits by (repeat constructor; cbn; lia || exact Hu).
    cbn [app finish length]. rewrite Nat.sub_diag, Nat.sub_0_r, firstn_all, app_nil_r. reflexivity.
  - destruct (digit_range _ (proj2 (pack4_val a 0 0 0 Hok B0 B0 B0))) as (R4 & R3 & _).
    pose proof (pad_range (val4 a 0 0 0)) as (_ & _ & P). apply (pack4_near a 0 0 _ Hok B0 B0) in P as [Hlt <-].
    apply (loop_partial _ _ _ _ _ 1); auto.
  - destruct Hok as [Ha Hb].
    destruct (digit_range _ (proj2 (pack4_val a b 0 0 Ha Hb B0 B0))) as (R4 & R3 & R2 & _).
    pose proof (pad_range (val4 a b 0 0)) as (_ & P & _). apply (pack4_near a b 0 _ Ha Hb B0) in P as [Hlt <-].
    apply (loop_partial _ _ _ _ _ 2); auto.
  - destruct Hok as (Ha & Hb & Hc).
    destruct (digit_range _ (proj2 (pack4_val a b c 0 Ha Hb Hc B0))) as (R4 & R3 & R2 & R1 & _).
    pose proof (pad_range (val4 a b c 0)) as (P & _ & _). apply (pack4_near a b c _ Ha Hb Hc) in P as [Hlt <-].
    apply (loop_partial _ _ _ _ _ 3); auto.
Qed.

Lemma a85decode_finish b : a85decode b = finish (a85_loop (b ++ [117; 117; 117; 117]) [] []).
Proof. unfold a85decode, finish. destruct (a85_loop _ [] []) as [[d c]|]; reflexivity. Qed.

(* the body of an ASCII85 encoding (full groups, z, partial final group, white space
   anywhere) decodes to exactly the data *)
Theorem a85_body : forall items f text,
  Forall item_ok items -> final_ok f ->
  Inter (flat_map item_digits items ++ final_digits f) text ->
  a85decode text = FOk (flat_map item_bytes items ++ final_bytes f).
Proof.
  intros items f text Hi Hf Hint. rewrite a85decode_finish.
  rewrite (loop_inter _ _ Hint). rewrite <- app_assoc. rewrite (loop_items items Hi). cbn [app].
  apply (loop_final f _ Hf).
Qed.

(* the start pattern ^\s*<?\s*~\s* must leave the body alone: it does not begin with white space or '~', nor with '<'
   followed by white space or '~'; and the end pattern must stop at the body: its last byte is not white space *)
Definition clean_start (body : list Z) : Prop :=
  match body with
  | [] => False
  | x :: r => is_ws x = false /\ x <> 126 /\
              (x = 60 -> match r with y :: _ => is_ws y = false /\ y <> 126 | [] => False end)
  end.
Definition clean_end (body : list Z) : Prop :=
  match rev body with [] => False | x :: _ => is_ws x = false end.

Lemma drop_ws_nonws x r : is_ws x = false -> drop_ws (x :: r) = x :: r.
Proof. intros H. cbn. rewrite H. reflexivity. Qed.

(* strip_start matches on the literals 60 and 126: that x is neither can only be used by case analysis on the binary
   digits of x, down to the depth of those two numbers *)
Lemma strip_start_plain x r : is_ws x = false -> x <> 60 -> x <> 126 -> strip_start (x :: r) = x :: r.
Proof.
  intros Hws H60 H126. unfold strip_start. rewrite (drop_ws_nonws x r Hws).
  destruct x as [|p|p]; try reflexivity. repeat (destruct p as [p|p|]; try reflexivity); contradiction.
Qed.

Lemma strip_start_lt y r : is_ws y = false -> y <> 126 -> strip_start (60 :: y :: r) = 60 :: y :: r.
Proof.
  intros Hws H126. unfold strip_start. change (drop_ws (60 :: y :: r)) with (60 :: y :: r). cbv iota beta zeta.
  rewrite (drop_ws_nonws y r Hws).
  destruct y as [|p|p]; try reflexivity. repeat (destruct p as [p|p|]; try reflexivity); contradiction.
Qed.

Lemma strip_start_clean body tail : clean_start body -> strip_start (body ++ tail) = body ++ tail.
Proof.
  destruct body as [|x r]; [contradiction|]. intros (Hws & H126 & H60). cbn [app].
  destruct (Z.eq_dec x 60) as [->|E]; [|apply strip_start_plain; assumption].
  destruct r as [|y r]; destruct (H60 eq_refl). apply strip_start_lt; assumption.
Qed.

Lemma strip_end_tilde_gt body : clean_end body -> strip_end (body ++ [126; 62]) = body.
Proof.
  unfold clean_end, strip_end. intros H.
  replace (rev (body ++ [126; 62])) with (62 :: 126 :: rev body) by (rewrite rev_app_distr; reflexivity).
  change (drop_ws (62 :: 126 :: rev body)) with (62 :: 126 :: rev body). cbv iota beta zeta.
  change (drop_ws (126 :: rev body)) with (126 :: rev body). cbv iota beta.
  destruct (rev body) as [|x r] eqn:E; [contradiction|].
  rewrite (drop_ws_nonws x r H), <- E. apply rev_involutive.
Qed.
