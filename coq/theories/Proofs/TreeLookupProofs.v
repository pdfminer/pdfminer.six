(* C17 proofs: name-tree lookup and the outline search. *)
From Coq Require Import ZArith List Bool Lia.
From PdfV Require Import Base.ListX Model.Labels.
Import ListNotations.
Open Scope Z_scope.

Definition kidsP (P : nametree -> Prop) (kids : option (list nametree)) : Prop :=
  match kids with Some ks => Forall P ks | None => True end.

Section NameInd.
  Variable P : nametree -> Prop.
  Hypothesis H : forall limits names kids, kidsP P kids -> P (NM limits names kids).
  Fixpoint nametree_ind2 (t : nametree) : P t :=
    match t with
    | NM limits names kids =>
        H limits names kids
          (match kids as k return kidsP P k with
           | Some ks => (fix go (l : list nametree) : Forall P l :=
                           match l with [] => Forall_nil _ | c :: r => Forall_cons _ (nametree_ind2 c) (go r) end) ks
           | None => I
           end)
    end.
End NameInd.

Definition nlimits (t : nametree) : option (key * key) := match t with NM l _ _ => l end.
Definition inside (lim : option (key * key)) (k : key) : Prop :=
  match lim with Some (k1, k2) => key_ltb k k1 || key_ltb k2 k = false | None => True end.

(* kids: a key inside an earlier sibling's Limits does not occur under a later sibling *)
Fixpoint sibs_ok (ks : list nametree) : Prop :=
  match ks with
  | [] => True
  | c :: r => (forall k, inside (nlimits c) k -> forall c' v, In c' r -> ~ In (k, v) (nm_entries c')) /\ sibs_ok r
  end.

(* well-formed: Limits bound the subtree, values are truthy, a leaf maps each key once,
   sibling subtrees are separated by their Limits *)
Fixpoint wf_nm (t : nametree) : Prop :=
  match t with
  | NM limits names kids =>
      (forall k v, In (k, v) (nm_entries t) -> inside limits k /\ v <> 0) /\
      match names with
      | Some l => forall k v v', In (k, v) l -> In (k, v') l -> v = v'
      | None => match kids with
                | Some ks => sibs_ok ks /\
                             (fix all (l : list nametree) : Prop :=
                                match l with [] => True | c :: r => wf_nm c /\ all r end) ks
                | None => True
                end
      end
  end.

Lemma pruned_inside lim k :
  (match lim with Some (k1, k2) => key_ltb k k1 || key_ltb k2 k | None => false end) = false <-> inside lim k.
Proof. destruct lim as [[k1 k2]|]; cbn [inside]; tauto. Qed.

Lemma dict_get_spec k l : forall cur,
  match dict_get k l cur with
  | Some v => In (k, v) l \/ cur = Some v
  | None => cur = None /\ forall v, ~ In (k, v) l
  end.
Proof.
  induction l as [|[k' v'] r IH]; intros cur; cbn [dict_get].
  - destruct cur; [right; reflexivity|split; [reflexivity|intros v []]].
  - specialize (IH (if key_eqb k' k then Some v' else cur)). destruct (dict_get k r _) as [v|].
    + destruct IH as [H|H]; [left; right; exact H|]. destruct (key_eqb k' k) eqn:E; [|right; exact H].
      apply (zs_eqb_eq k' k) in E. inversion H; subst. left. left. reflexivity.
    + destruct IH as [Hc Hn]. destruct (key_eqb k' k) eqn:E; [discriminate|]. split; [exact Hc|].
      intros v [Heq|Hin]; [|exact (Hn v Hin)]. inversion Heq; subst.
      pose proof (zs_eqb_refl k : key_eqb k k = true). congruence.
Qed.

(* an absent key is either refused by the Limits or searched for in vain inside them *)
Definition lookup_ok (k : key) (t : nametree) : Prop :=
  wf_nm t ->
  (forall v, In (k, v) (nm_entries t) -> nm_lookup k t = Found v) /\
  ((forall v, ~ In (k, v) (nm_entries t)) ->
     (nm_lookup k t = KeyErr /\ inside (nlimits t) k) \/ (nm_lookup k t = RetNone /\ ~ inside (nlimits t) k)).

Definition kids_go (k : key) : list nametree -> nres :=
  fix go (ks : list nametree) : nres :=
    match ks with
    | [] => KeyErr
    | c :: r => match nm_lookup k c with
                | Found v => if v =? 0 then go r else Found v
                | RetNone => go r
                | KeyErr => KeyErr
                end
    end.

Lemma nm_lookup_unfold k limits names kids :
  nm_lookup k (NM limits names kids) =
  if match limits with Some (k1, k2) => key_ltb k k1 || key_ltb k2 k | None => false end then RetNone
  else match names with
       | Some l => match dict_get k l None with Some v => Found v | None => KeyErr end
       | None => match kids with Some ks => kids_go k ks | None => KeyErr end
       end.
Proof. reflexivity. Qed.

Lemma kids_go_ok k : forall ks,
  Forall (lookup_ok k) ks -> Forall wf_nm ks -> sibs_ok ks ->
  (forall v, In (k, v) (flat_map nm_entries ks) -> kids_go k ks = Found v) /\
  ((forall v, ~ In (k, v) (flat_map nm_entries ks)) -> kids_go k ks = KeyErr).
Proof.
  induction ks as [|c r IH]; intros Hok Hwf Hs.
  - split; [intros v []|reflexivity].
  - inversion Hok as [|? ? Hc Hr]; subst. inversion Hwf as [|? ? Wc Wr]; subst.
    destruct Hs as [Hsep Hs']. destruct (IH Hr Wr Hs') as [IHf IHa].
    destruct (Hc Wc) as [Cf Ca].
    assert (Hlim : forall v, In (k, v) (nm_entries c) -> inside (nlimits c) k /\ v <> 0).
    { destruct c as [lim nm kd]. cbn [wf_nm] in Wc. destruct Wc as [W1 _]. intros v Hv. apply (W1 k v Hv). }
    cbn [flat_map kids_go]. split.
    + intros v Hin. apply in_app_or in Hin. destruct Hin as [Hin|Hin].
      * rewrite (Cf v Hin). destruct (Hlim v Hin) as [_ Hv]. apply Z.eqb_neq in Hv. rewrite Hv. reflexivity.
      * (* k lives under a later sibling, so outside the Limits of c: c refuses it and the loop goes on *)
        apply in_flat_map in Hin. destruct Hin as (c' & Hc' & Hkv).
        assert (Hout : ~ inside (nlimits c) k) by (intros Hins; exact (Hsep k Hins c' v Hc' Hkv)).
        destruct (Ca (fun v' Hv' => Hout (proj1 (Hlim v' Hv')))) as [[_ Hins]|[E _]]; [contradiction|].
        rewrite E. apply IHf, in_flat_map. eauto.
    + intros Hnone.
      destruct (Ca (fun v' Hv' => Hnone v' (in_or_app _ _ _ (or_introl Hv')))) as [[E _]|[E _]]; rewrite E; [reflexivity|].
      apply IHa. intros v' Hv'. apply (Hnone v'), in_or_app. right. exact Hv'.
Qed.

(* on every well-formed name tree, whatever its shape, a present key is found with its value; an absent key is refused by
   the node's Limits (None) or reported as not found (KeyError) *)
Theorem nm_lookup_correct k : forall t, lookup_ok k t.
Proof.
  induction t as [limits names kids IH] using nametree_ind2. unfold kidsP in IH. intros Hwf.
  cbn [wf_nm] in Hwf. destruct Hwf as [Hlim Hrest]. rewrite nm_lookup_unfold. cbn [nlimits nm_entries] in *.
  pose proof (pruned_inside limits k) as Hp. pose proof (dict_get_spec k) as Hd.
  destruct (match limits with Some (k1, k2) => key_ltb k k1 || key_ltb k2 k | None => false end).
  - (* refused: no entry of the subtree has this key *)
    assert (Hout : ~ inside limits k) by (intros H; apply Hp in H; discriminate).
    split; [intros v Hin; destruct (Hout (proj1 (Hlim k v Hin)))|intros _; right; split; [reflexivity|exact Hout]].
  - assert (Hins : inside limits k) by (apply Hp; reflexivity).
    destruct names as [l|].
    + specialize (Hd l None). destruct (dict_get k l None) as [v'|].
      * destruct Hd as [Hd|Hd]; [|discriminate].
        split; [intros v Hin; f_equal; symmetry; exact (Hrest k v v' Hin Hd)|intros Hnone; destruct (Hnone v' Hd)].
      * split; [intros v Hin; destruct (proj2 Hd v Hin)|intros _; left; split; [reflexivity|exact Hins]].
    + destruct kids as [ks|]; [|split; [intros v []|intros _; left; split; [reflexivity|exact Hins]]].
      destruct Hrest as [Hs Hall]. destruct (kids_go_ok k ks IH (proj1 (Forall_fix wf_nm ks) Hall) Hs) as [Hf Ha].
      split; [exact Hf|intros Hnone; left; split; [exact (Ha Hnone)|exact Hins]].
Qed.

Fixpoint osize (t : otree) : nat :=
  match t with OT _ _ _ children => S (fold_right (fun c n => (osize c + n)%nat) 0%nat children) end.
Definition fsize (l : list otree) : nat := fold_right (fun c n => (osize c + n)%nat) 0%nat l.

Definition head_id (l : list otree) : option Z := match l with [] => None | c :: _ => Some (oid c) end.

(* the store describes the forest: every item is stored under its id with Title, A/Dest, First
   (and Last) of its children and Next of its following sibling *)
Fixpoint odesc (st : ostore) (t : otree) (next : option Z) : Prop :=
  match t with
  | OT i title action children =>
      let e := olookup st i in
      otitle e = Some title /\ oaction e = action /\ onext e = next /\
      ofirst e = head_id children /\ (children <> [] -> olast e <> None) /\
      (fix sibs (l : list otree) : Prop :=
         match l with [] => True | c :: r => odesc st c (head_id r) /\ sibs r end) children
  end.
Fixpoint odescs (st : ostore) (l : list otree) : Prop :=
  match l with [] => True | c :: r => odesc st c (head_id r) /\ odescs st r end.

Lemma odesc_children st i title action children next :
  odesc st (OT i title action children) next -> odescs st children.
Proof.
  cbn [odesc]. intros (_ & _ & _ & _ & _ & H). induction children as [|c r IH]; [exact I|].
  destruct H as [Hc Hr]. split; [exact Hc|]. apply IH. exact Hr.
Qed.

Theorem osearch_forest st : forall fuel sibs level,
  odescs st sibs -> (fsize sibs < fuel)%nat ->
  match head_id sibs with
  | Some i => osearch fuel st i level = Some (flat_map (spec_outline level) sibs)
  | None => True
  end.
Proof.
  induction fuel as [|f IH]; intros sibs level Hd Hf; [lia|].
  destruct sibs as [|[i title action children] r]; [exact I|].
  (* the search of a possibly empty list of siblings, as it appears for First and for Next *)
  assert (IH' : forall l lvl, odescs st l -> (fsize l < f)%nat ->
            match head_id l with Some n => osearch f st n lvl | None => Some [] end = Some (flat_map (spec_outline lvl) l)).
  { intros [|c cs] lvl Hl Hs; [reflexivity|exact (IH (c :: cs) lvl Hl Hs)]. }
  cbn [head_id oid]. destruct Hd as [Ht Hr].
  pose proof (odesc_children _ _ _ _ _ _ Ht) as Hch.
  cbn [odesc] in Ht. destruct Ht as (Etitle & Eact & Enext & Efirst & Elast & _).
  cbn [fsize fold_right osize] in Hf. fold (fsize children) in Hf. fold (fsize r) in Hf.
  specialize (IH' children (level + 1) Hch ltac:(lia)) as Hdown.
  cbn [osearch]. rewrite Etitle, Eact, Enext, Efirst, (IH' r level Hr) by lia.
  destruct children as [|c cs]; cbn [head_id] in *.
  - cbn [flat_map spec_outline app]. rewrite app_nil_r. reflexivity.
  - destruct (olast (olookup st i)); [|destruct Elast; [discriminate|reflexivity]].
    rewrite Hdown. cbn [flat_map spec_outline]. rewrite <- !app_assoc. reflexivity.
Qed.
