(* C19: a reference T.6 encoder for the elements (one admissible choice of codes), so that the decoding theorems are
   about every bitmap: every bitmap has an encoding to which g4_bytes_decode applies. *)
From Coq Require Import ZArith List Lia.
From PdfV Require Import Gen.CCITTTables Model.CCITT Proofs.CCITTProofs Proofs.CCITTModeProofs Proofs.CCITTGlueProofs.
Import ListNotations.
Open Scope Z_scope.

Definition lookup_code (tab : list (Z * list bool)) (v : Z) : option (Z * list bool) := find (fun e => fst e =? v) tab.
Definition code_of (tab : list (Z * list bool)) (v : Z) : list bool :=
  match lookup_code tab v with Some e => snd e | None => [] end.

(* the values that have a code: the make-up 2560, the make-ups 64 .. 2496, the terminating lengths 0 .. 63 *)
Definition run_values : list Z := 2560 :: map (fun j => 64 * Z.of_nat j) (seq 1 39) ++ map Z.of_nat (seq 0 64).
Definition has_all (tab : list (Z * list bool)) : bool :=
  forallb (fun v => match lookup_code tab v with Some e => negb (bits_eqb (snd e) []) | None => false end) run_values.
Lemma ctable_has_all c : has_all (ctable c) = true.
Proof. unfold ctable. destruct (colour_table c); vm_compute; reflexivity. Qed.

Lemma code_in tab v : has_all tab = true -> In v run_values -> In (v, code_of tab v) tab /\ code_of tab v <> [].
Proof.
  intros H Hv. unfold has_all in H. rewrite forallb_forall in H. specialize (H v Hv).
  unfold code_of. destruct (lookup_code tab v) as [e|] eqn:E; [|discriminate].
  unfold lookup_code in E. apply find_some in E. destruct E as [Hin Hf]. destruct e as [v' code]. cbn [fst snd] in *.
  assert (v' = v) by lia. subst v'. split; [exact Hin|]. intros Hc. rewrite Hc in H. discriminate.
Qed.

Lemma in_makeup j : 1 <= j <= 39 -> In (64 * j) run_values.
Proof.
  intros Hj. right. apply in_or_app. left. apply in_map_iff. exists (Z.to_nat j). split; [lia|]. apply in_seq. lia.
Qed.
Lemma in_term t : 0 <= t <= 63 -> In t run_values.
Proof.
  intros Ht. right. apply in_or_app. right. apply in_map_iff. exists (Z.to_nat t). split; [lia|]. apply in_seq. lia.
Qed.

(* make-up codes: as many 2560s as fit, then one 64-multiple below 2560 if needed; then the terminating code *)
Definition makeups (tab : list (Z * list bool)) (n : Z) : list (Z * list bool) :=
  repeat (2560, code_of tab 2560) (Z.to_nat (n / 2560)) ++
  (if 64 <=? n mod 2560 then [(64 * ((n mod 2560) / 64), code_of tab (64 * ((n mod 2560) / 64)))] else []).
Definition enc_run (c n : Z) : list bool :=
  flat_map snd (makeups (ctable c) n) ++ code_of (ctable c) (n mod 64).

Lemma sum_repeat v code k : sum_mk (repeat (v, code) k) = v * Z.of_nat k.
Proof. induction k as [|k IH]; [unfold sum_mk; cbn [repeat fold_right]; lia|]. cbn [repeat]. unfold sum_mk in *. cbn [fold_right fst]. rewrite IH. lia. Qed.
Lemma sum_mk_app a b : sum_mk (a ++ b) = sum_mk a + sum_mk b.
Proof. unfold sum_mk. induction a as [|e a IH]; cbn [app fold_right]; [lia|]. rewrite IH. lia. Qed.

(* the quotients and remainders of [makeups] are left to lia *)
Ltac Zify.zify_post_hook ::= Z.to_euclidean_division_equations.
Lemma enc_run_ok c n : 0 <= n -> runcode c n (enc_run c n).
Proof.
  intros Hn. pose proof (ctable_has_all c) as Hall. set (tab := ctable c) in *.
  exists (makeups tab n), (n mod 64), (code_of tab (n mod 64)).
  destruct (code_in tab (n mod 64) Hall (in_term (n mod 64) ltac:(lia))) as [It Nt].
  destruct (code_in tab 2560 Hall (or_introl eq_refl)) as [I2 N2].
  repeat split; try assumption; try lia; try reflexivity.
  - unfold makeups. apply Forall_app. split.
    + apply Forall_forall. intros e He. apply repeat_spec in He. subst e. cbn [fst snd]. repeat split; try assumption; lia.
    + destruct (64 <=? n mod 2560) eqn:E; [|constructor].
      assert (Hj : 1 <= (n mod 2560) / 64 <= 39) by lia.
      destruct (code_in tab (64 * (n mod 2560 / 64)) Hall (in_makeup (n mod 2560 / 64) Hj)) as [Im Nm].
      constructor; [|constructor]. cbn [fst snd]. repeat split; try assumption; lia.
  - unfold makeups. rewrite sum_mk_app, sum_repeat.
    destruct (64 <=? n mod 2560) eqn:E.
    + unfold sum_mk. cbn [fold_right fst]. lia.
    + unfold sum_mk. cbn [fold_right]. lia.
Qed.
Ltac Zify.zify_post_hook ::= idtac.

Definition mode_code (m : g4mode) : list bool :=
  match find (fun e => mode_eqb (fst e) m) MODE with Some e => snd e | None => [] end.
Lemma mode_code_in m : (m = MP \/ m = MH \/ exists d, m = MV d /\ -3 <= d <= 3) -> In (m, mode_code m) MODE.
Proof.
  intros H. unfold mode_code. destruct (find (fun e => mode_eqb (fst e) m) MODE) as [[m' code]|] eqn:E.
  - apply find_some in E. destruct E as [Hin Hf]. apply mode_eqb_eq in Hf. cbn in Hf. subst m'. exact Hin.
  - (* the search succeeds for each of the nine modes *)
    exfalso. destruct H as [->|[->|(d & -> & Hd)]]; [discriminate E|discriminate E|].
    assert (H : d = -3 \/ d = -2 \/ d = -1 \/ d = 0 \/ d = 1 \/ d = 2 \/ d = 3) by lia.
    repeat (destruct H as [->|H]; [discriminate E|]). subst d. discriminate E.
Qed.

Definition enc_op (c : Z) (o : op) : list bool :=
  match o with
  | OPass => mode_code MP
  | OVert d => mode_code (MV d)
  | OHoriz n1 n2 => mode_code MH ++ enc_run c n1 ++ enc_run (1 - c) n2
  end.
Definition op_ok (o : op) : Prop :=
  match o with OPass => True | OVert d => -3 <= d <= 3 | OHoriz n1 n2 => 0 <= n1 /\ 0 <= n2 end.

Lemma enc_op_ok c o : op_ok o -> elem_code c o (enc_op c o).
Proof.
  destruct o as [|d|n1 n2]; cbn [op_ok enc_op]; intros H.
  - constructor. apply mode_code_in. auto.
  - constructor. apply mode_code_in. right. right. exists d. auto.
  - destruct H as [H1 H2]. constructor; [apply mode_code_in; auto|apply enc_run_ok; exact H1|apply enc_run_ok; exact H2].
Qed.

Fixpoint enc_ops (s : g4) (ops : list op) : list bool :=
  match ops with
  | [] => []
  | o :: r => enc_op (gcolor s) o ++ enc_ops (apply_flush s o) r
  end.
Lemma enc_ops_ok : forall ops s, Forall op_ok ops -> ops_bits s ops (enc_ops s ops).
Proof.
  induction ops as [|o ops IH]; intros s H; cbn [enc_ops]; [constructor|].
  inversion H; subst. constructor; [apply enc_op_ok; assumption|apply IH; assumption].
Qed.

Lemma coding_ops_ok ref row a0 c ops : coding ref row a0 c ops -> Forall op_ok ops.
Proof.
  intros C. induction C as [c|a0 c b1 b2 a1 ops Hp Hb1 Hb2 Ha1 Hlt C IH|a0 c b1 a1 d ops Hp Hb1 Ha1 Hd Hr C IH|a0 c a1 a2 ops Hp Ha1 Ha2 C IH].
  - constructor.
  - constructor; [exact I|exact IH].
  - constructor; [exact Hr|exact IH].
  - constructor; [|exact IH]. destruct Ha1 as (R1 & _). destruct Ha2 as (R2 & _). cbn [op_ok]. lia.
Qed.
Lemma page_ops_ok ref rows ops : page_coding ref rows ops -> Forall op_ok ops.
Proof.
  intros P. induction P as [ref|ref row rows ops ops' Hl Hb C P IH]; [constructor|].
  apply Forall_app. split; [apply (coding_ops_ok _ _ _ _ _ C)|exact IH].
Qed.

Definition byte_of (b : list bool) : Z := fold_left (fun a x => 2 * a + (if x : bool then 1 else 0)) b 0.
Lemma bits_of_byte_of b7 b6 b5 b4 b3 b2 b1 b0 :
  bits_of_byte (byte_of [b7; b6; b5; b4; b3; b2; b1; b0]) = [b7; b6; b5; b4; b3; b2; b1; b0].
Proof. destruct b7, b6, b5, b4, b3, b2, b1, b0; vm_compute; reflexivity. Qed.

Fixpoint pack (fuel : nat) (bits : list bool) : list Z :=
  match fuel with
  | O => []
  | S f =>
      match bits with
      | [] => []
      | b7 :: b6 :: b5 :: b4 :: b3 :: b2 :: b1 :: b0 :: r => byte_of [b7; b6; b5; b4; b3; b2; b1; b0] :: pack f r
      | short => [byte_of (short ++ repeat false (8 - length short))]
      end
  end.

Lemma pack_spec : forall fuel bits, (length bits <= fuel)%nat ->
  exists k, (k <= 7)%nat /\ flat_map bits_of_byte (pack fuel bits) = bits ++ repeat false k.
Proof.
  induction fuel as [|f IH]; intros bits Hl.
  - destruct bits; [|cbn in Hl; lia]. exists 0%nat. split; [lia|reflexivity].
  - remember (8 - length bits)%nat as k0 eqn:Ek.
    destruct bits as [|b7 [|b6 [|b5 [|b4 [|b3 [|b2 [|b1 [|b0 r]]]]]]]]; cbn [pack flat_map].
    1: exists 0%nat; split; [lia|reflexivity].
    1-7: exists k0; subst k0; split; [cbn; lia|cbn [length Nat.sub app repeat]; rewrite bits_of_byte_of; reflexivity].
    destruct (IH r) as (k & Hk & E); [cbn [length] in Hl; lia|]. exists k. split; [exact Hk|].
    rewrite bits_of_byte_of, E. reflexivity.
Qed.

(* every bitmap has an encoding, and that encoding decodes to the bitmap *)
Theorem every_bitmap_round_trips w rows reversed : 0 < w ->
  Forall (fun r => length r = Z.to_nat w /\ bin r) rows ->
  exists data, ccittfaxdecode data w false reversed = DOk (flat_map (output_line reversed) rows).
Proof.
  intros Hw Hrows. rewrite <- (length_white_line w) in Hrows.
  destruct (every_page_has_a_coding rows (white_line w) Hrows) as (ops & P); [rewrite wid_white_line; lia|].
  set (bits := enc_ops (g4_init w false) ops).
  destruct (pack_spec (length bits) bits (le_n _)) as (k & Hk & E).
  exists (pack (length bits) bits).
  apply (g4_bytes_decode w rows ops bits _ k reversed Hw P); [|exact E|exact Hk].
  apply enc_ops_ok. apply (page_ops_ok _ _ _ P).
Qed.
