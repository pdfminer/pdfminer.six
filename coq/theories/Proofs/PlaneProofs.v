(* Proofs about Model/Plane.v: after any valid operation sequence, find = brute
   force (as a duplicate-free list), iteration = live objects in insertion order. *)
From Coq Require Import QArith Qround List Lia Lqa.
From PdfV Require Import Base.Num Base.ListX Gen.Geom Model.Plane Proofs.GeomLaws.
Import ListNotations.

Lemma Qfloor_shift (x : Q) (g : Z) : Qfloor (x + inject_Z g) = (Qfloor x + g)%Z.
Proof.
  pose proof (Qfloor_le x). pose proof (Qlt_floor x).
  pose proof (Qfloor_le (x + inject_Z g)). pose proof (Qlt_floor (x + inject_Z g)).
  assert (Qfloor x + g < Qfloor (x + inject_Z g) + 1)%Z by (rewrite Zlt_Qlt; rewrite !inject_Z_plus in *; lra).
  assert (Qfloor (x + inject_Z g) < Qfloor x + g + 1)%Z by (rewrite Zlt_Qlt; rewrite !inject_Z_plus in *; lra).
  lia.
Qed.

Lemma zrange_In a b z : In z (zrange a b) <-> (a <= z < b)%Z.
Proof.
  unfold zrange. rewrite in_map_iff. split.
  - intros (i & <- & Hi). apply in_seq in Hi. lia.
  - intros H. exists (Z.to_nat (z - a)). split; [lia|]. apply in_seq. lia.
Qed.

(* one coordinate of Plane._getrange: clampL / clampU are the lower / upper half of Plane_getrange_clip, and
   lo1 .. hi1 is the cell range that drange computes from the clamped interval *)
Definition clampL (X0 X1 a : Q) : Q := nmin QOps (nmax QOps X0 a) X1.
Definition clampU (X0 X1 b : Q) : Q := nmax QOps (nmin QOps X1 b) X0.
Definition lo1 (X0 X1 : Q) (g : Z) (a : Q) : Z := (Qfloor (clampL X0 X1 a) / g)%Z.
Definition hi1 (X0 X1 : Q) (g : Z) (b : Q) : Z := (Qfloor (clampU X0 X1 b + inject_Z g) / g)%Z.

Lemma clamp_le X0 X1 a b : (a <= b)%Q -> (clampL X0 X1 a <= clampU X0 X1 b)%Q.
Proof.
  intros Hab. unfold clampL, clampU.
  destruct (nmax_Q_spec X0 a) as (A1 & A2 & A3).
  destruct (nmin_Q_spec (nmax QOps X0 a) X1) as (B1 & B2 & B3).
  destruct (nmin_Q_spec X1 b) as (C1 & C2 & C3).
  destruct (nmax_Q_spec (nmin QOps X1 b) X0) as (D1 & D2 & D3).
  destruct A3 as [A3 | A3], C3 as [C3 | C3]; rewrite A3 in *; rewrite C3 in *; lra.
Qed.

Lemma lo_lt_hi X0 X1 g a b :
  (0 < g)%Z -> (a <= b)%Q -> (lo1 X0 X1 g a < hi1 X0 X1 g b)%Z.
Proof.
  intros Hg Hab. unfold lo1, hi1.
  rewrite Qfloor_shift.
  replace (Qfloor (clampU X0 X1 b) + g)%Z with (Qfloor (clampU X0 X1 b) + 1 * g)%Z by lia.
  rewrite Z.div_add by lia.
  pose proof (Qfloor_resp_le _ _ (clamp_le X0 X1 a b Hab)) as F.
  pose proof (Z.div_le_mono _ _ g Hg F). lia.
Qed.

(* two strictly overlapping, well-formed intervals share a grid index *)
Lemma share_1d X0 X1 g a b c d :
  (0 < g)%Z -> (a <= b)%Q -> (c <= d)%Q -> (c < b)%Q -> (a < d)%Q ->
  exists z, (lo1 X0 X1 g a <= z < hi1 X0 X1 g b)%Z /\ (lo1 X0 X1 g c <= z < hi1 X0 X1 g d)%Z.
Proof.
  intros Hg Hab Hcd Hcb Had.
  pose proof (lo_lt_hi X0 X1 g a b Hg Hab).
  pose proof (lo_lt_hi X0 X1 g c d Hg Hcd).
  assert (lo1 X0 X1 g a < hi1 X0 X1 g d)%Z by (apply lo_lt_hi; auto; lra).
  assert (lo1 X0 X1 g c < hi1 X0 X1 g b)%Z by (apply lo_lt_hi; auto; lra).
  exists (Z.max (lo1 X0 X1 g a) (lo1 X0 X1 g c)). lia.
Qed.

Definition wf_box (b : box) : Prop := let '(x0, y0, x1, y1) := b in (x0 <= x1 /\ y0 <= y1)%Q.
Definition wf_bounds (pb : @PlaneB Q) : Prop :=
  (PlaneB_x0 pb <= PlaneB_x1 pb)%Q /\ (PlaneB_y0 pb <= PlaneB_y1 pb)%Q /\ (0 < PlaneB_gridsize pb)%Z.

Lemma getrange_In pb x0 y0 x1 y1 gx gy :
  In (gx, gy) (getrange pb (x0, y0, x1, y1)) <->
  (lo1 (PlaneB_x0 pb) (PlaneB_x1 pb) (PlaneB_gridsize pb) x0 <= gx
   < hi1 (PlaneB_x0 pb) (PlaneB_x1 pb) (PlaneB_gridsize pb) x1)%Z /\
  (lo1 (PlaneB_y0 pb) (PlaneB_y1 pb) (PlaneB_gridsize pb) y0 <= gy
   < hi1 (PlaneB_y0 pb) (PlaneB_y1 pb) (PlaneB_gridsize pb) y1)%Z.
Proof.
  unfold getrange, Plane_getrange_clip, drange. cbn [nfloor nadd nofZ QOps].
  rewrite in_flat_map. split.
  - intros (y & Hy & Hin). apply in_map_iff in Hin. destruct Hin as (x & E & Hx).
    inversion E; subst. apply zrange_In in Hy. apply zrange_In in Hx.
    unfold lo1, hi1, clampL, clampU. split; assumption.
  - intros [Hx Hy]. exists gy. split.
    + apply zrange_In. exact Hy.
    + apply in_map_iff. exists gx. split; auto. apply zrange_In. exact Hx.
Qed.

Definition overlaps (ob qb : box) : Prop := no_overlap ob qb = false.

Lemma overlaps_iff a0 b0 a1 b1 c0 d0 c1 d1 :
  overlaps (a0, b0, a1, b1) (c0, d0, c1, d1) <-> (c0 < a1 /\ a0 < c1 /\ d0 < b1 /\ b0 < d1)%Q.
Proof. unfold overlaps, no_overlap. rewrite !orb_false_iff, !Qleb_gt. tauto. Qed.

Lemma share_cell pb ob qb :
  wf_bounds pb -> wf_box ob -> wf_box qb -> overlaps ob qb ->
  exists k, In k (getrange pb ob) /\ In k (getrange pb qb).
Proof.
  intros (_ & _ & Hg) Hob Hqb Hov.
  destruct ob as [[[a0 b0] a1] b1]. destruct qb as [[[c0 d0] c1] d1].
  apply overlaps_iff in Hov. destruct Hov as (H1 & H2 & H3 & H4), Hob as [Ha Hb], Hqb as [Hc Hd].
  destruct (share_1d (PlaneB_x0 pb) (PlaneB_x1 pb) _ a0 a1 c0 c1 Hg Ha Hc H1 H2) as (gx & Gx1 & Gx2).
  destruct (share_1d (PlaneB_y0 pb) (PlaneB_y1 pb) _ b0 b1 d0 d1 Hg Hb Hd H3 H4) as (gy & Gy1 & Gy2).
  exists (gx, gy). split.
  - apply getrange_In. split; assumption.
  - apply getrange_In. split; assumption.
Qed.

Lemma mem_nat_In n l : mem_nat n l = true <-> In n l.
Proof.
  unfold mem_nat. rewrite existsb_exists. split.
  - intros (x & Hx & E). apply Nat.eqb_eq in E. subst. exact Hx.
  - intros H. exists n. split; auto. apply Nat.eqb_refl.
Qed.

Lemma mem_nat_nIn n l : mem_nat n l = false <-> ~ In n l.
Proof.
  rewrite <- mem_nat_In. destruct (mem_nat n l); split; intros; congruence.
Qed.

Lemma cell_eqb_eq a b : cell_eqb a b = true <-> a = b.
Proof.
  destruct a, b. unfold cell_eqb. cbn. rewrite andb_true_iff, !Z.eqb_eq. split.
  - intros [-> ->]. reflexivity.
  - intros E. inversion E. auto.
Qed.

Lemma mem_cell_In k ks : mem_cell k ks = true <-> In k ks.
Proof.
  unfold mem_cell. rewrite existsb_exists. split.
  - intros (x & Hx & E). apply cell_eqb_eq in E. subst. exact Hx.
  - intros H. exists k. split; auto. apply cell_eqb_eq. reflexivity.
Qed.

(* in a duplicate-free list, removing the first occurrence removes the element *)
Lemma remove_nat_In i j l : NoDup l -> (In j (remove_nat i l) <-> In j l /\ j <> i).
Proof.
  induction l as [|x l IH]; cbn [remove_nat In]; intros ND; [tauto|].
  inversion ND as [|? ? Hx ND']; subst.
  destruct (Nat.eqb_spec x i) as [->|N]; [|cbn [In]; rewrite IH by assumption]; intuition congruence.
Qed.

Lemma remove_nat_NoDup i l : NoDup l -> NoDup (remove_nat i l).
Proof.
  induction l as [|x l IH]; cbn [remove_nat]; intros ND; [exact ND|].
  inversion ND as [|? ? Hx ND']; subst.
  destruct (Nat.eqb x i); [exact ND'|]. constructor; [|auto].
  rewrite remove_nat_In by assumption. tauto.
Qed.

Lemma remove_first_In i o l :
  NoDup (map oid l) -> (In o (remove_first i l) <-> In o l /\ oid o <> i).
Proof.
  induction l as [|x l IH]; cbn [remove_first map In]; intros ND; [tauto|].
  inversion ND as [|? ? Hx ND']; subst.
  destruct (Nat.eqb_spec (oid x) i) as [E|N]; [|cbn [In]; rewrite IH by assumption; intuition congruence].
  split; [|intuition congruence]. intros H. split; [right; exact H|].
  intros Hi. apply Hx. rewrite E, <- Hi. apply in_map, H.
Qed.

Lemma remove_first_ids i l : map oid (remove_first i l) = remove_nat i (map oid l).
Proof. induction l as [|x l IH]; [reflexivity|]. cbn [remove_first map remove_nat]. destruct (Nat.eqb (oid x) i); cbn [map]; congruence. Qed.

Record Inv (p : plane) : Prop := {
  inv_bounds : wf_bounds (pbounds p);
  inv_seq_nodup : NoDup (map oid (pseq p));
  inv_seq_wf : forall o, In o (pseq p) -> wf_box (obox o);
  inv_live_nodup : NoDup (plive p);
  inv_live_seq : forall i, In i (plive p) -> In i (map oid (pseq p));
  inv_grid : forall k o, In o (pgrid p k) <->
                         In o (pseq p) /\ In (oid o) (plive p) /\ In k (getrange (pbounds p) (obox o));
  inv_cell_nodup : forall k, NoDup (map oid (pgrid p k))
}.

Lemma Inv_init pb : wf_bounds pb -> Inv (plane_init pb).
Proof.
  intros H. constructor; cbn; auto; try constructor; try tauto.
Qed.

(* the property's domain: insert a well-formed object whose id was never inserted before, remove a live one
   (the very object that was inserted).  Python would accept adding a removed object again; that is outside. *)
Definition valid_op (p : plane) (op : pop) : Prop :=
  match op with
  | PAdd o => ~ In (oid o) (map oid (pseq p)) /\ wf_box (obox o)
  | PRemove o => In o (pseq p) /\ In (oid o) (plive p)
  end.

Lemma plane_add_fresh p o : Inv p -> ~ In (oid o) (map oid (pseq p)) -> plive (plane_add p o) = plive p ++ [oid o].
Proof.
  intros I Hfresh. cbn [plane_add plive].
  destruct (mem_nat (oid o) (plive p)) eqn:E; [|reflexivity]. apply mem_nat_In, (inv_live_seq p I) in E. contradiction.
Qed.

Lemma Inv_add p o : Inv p -> valid_op p (PAdd o) -> Inv (plane_add p o).
Proof.
  intros I [Hfresh Hwf]. pose proof (plane_add_fresh p o I Hfresh) as Hlive.
  destruct I as [Ib Isn Iwf Iln Ils Ig Icn].
  assert (Hnl : ~ In (oid o) (plive p)) by (intro H; apply Hfresh, Ils, H).
  assert (Hsnoc : forall (l : list nat) a, NoDup l -> ~ In a l -> NoDup (l ++ [a])).
  { intros l a Hl Ha. apply NoDup_app_intro; [exact Hl|repeat constructor; intros []|]. intros x Hx [<-|[]]. exact (Ha Hx). }
  constructor; rewrite ?Hlive; cbn [plane_add pbounds pseq pgrid].
  - exact Ib.
  - rewrite map_app. apply Hsnoc; assumption.
  - intros x Hx. apply in_app_or in Hx. destruct Hx as [Hx | [<- | []]]; auto.
  - apply Hsnoc; assumption.
  - intros i. rewrite map_app, !in_app_iff. intros [Hi|Hi]; auto.
  - (* an object of the grid with o's id would be an earlier object with that id *)
    assert (Hid : forall x, In x (pseq p) -> oid x <> oid o) by (intros x Hx E; apply Hfresh; rewrite <- E; apply in_map, Hx).
    intros k x. destruct (mem_cell k (getrange (pbounds p) (obox o))) eqn:E.
    + apply mem_cell_In in E. rewrite in_app_iff, Ig, !in_app_iff. cbn [In]. split.
      * intros [(H1 & H2 & H3) | [<- | []]]; auto 6.
      * intros ([H1 | [<- | []]] & [H2 | [H2 | []]] & H3); auto. destruct (Hid x H1). auto.
    + rewrite Ig, !in_app_iff. cbn [In]. split.
      * intros (H1 & H2 & H3); auto.
      * intros ([H1 | [<- | []]] & [H2 | [H2 | []]] & H3); auto; [destruct (Hid x H1); auto| |];
          apply mem_cell_In in H3; congruence.
  - intros k. destruct (mem_cell k (getrange (pbounds p) (obox o))); auto.
    rewrite map_app. apply Hsnoc; auto. intro H. apply in_map_iff in H. destruct H as (x & Hx & Hin).
    apply Ig in Hin. apply Hnl. rewrite <- Hx. tauto.
Qed.

Lemma plane_remove_live p o : In (oid o) (plive p) ->
  plane_remove p o = Some (mkPlane (pbounds p) (pseq p) (remove_nat (oid o) (plive p))
    (fun k => if mem_cell k (getrange (pbounds p) (obox o)) then remove_first (oid o) (pgrid p k) else pgrid p k)).
Proof. intros H. unfold plane_remove. apply mem_nat_In in H. rewrite H. reflexivity. Qed.

Lemma Inv_remove p o p' : Inv p -> valid_op p (PRemove o) -> plane_remove p o = Some p' -> Inv p'.
Proof.
  intros I [Hin Hlive] E. destruct I as [Ib Isn Iwf Iln Ils Ig Icn].
  rewrite (plane_remove_live p o Hlive) in E. injection E as <-.
  constructor; cbn [pbounds pseq plive pgrid]; auto.
  - apply remove_nat_NoDup; auto.
  - intros i Hi. apply remove_nat_In in Hi; auto. apply Ils. tauto.
  - intros k x. destruct (mem_cell k (getrange (pbounds p) (obox o))) eqn:Ek.
    + rewrite remove_first_In by apply Icn. rewrite Ig, remove_nat_In by assumption. tauto.
    + rewrite Ig, remove_nat_In by assumption. split; [|tauto].
      intros (H1 & H2 & H3). repeat split; auto. intros Hid.
      rewrite (NoDup_map_inj oid _ Isn x o H1 Hin Hid) in H3. apply mem_cell_In in H3. congruence.
  - intros k. destruct (mem_cell k (getrange (pbounds p) (obox o))); auto.
    rewrite remove_first_ids. apply remove_nat_NoDup; auto.
Qed.

Fixpoint valid_ops (p : plane) (ops : list pop) : Prop :=
  match ops with
  | [] => True
  | op :: r => valid_op p op /\
               match plane_step p op with Some p' => valid_ops p' r | None => False end
  end.

Lemma valid_step_some p op : valid_op p op -> exists p', plane_step p op = Some p'.
Proof.
  destruct op as [o | o]; cbn.
  - eauto.
  - intros [_ H]. rewrite (plane_remove_live p o H). eauto.
Qed.

(* abstract history semantics: the list of inserted objects in order, and the
   set of removed ids *)
Fixpoint inserted (ops : list pop) : list obj :=
  match ops with
  | [] => []
  | PAdd o :: r => o :: inserted r
  | PRemove _ :: r => inserted r
  end.

Fixpoint removed (ops : list pop) : list nat :=
  match ops with
  | [] => []
  | PAdd _ :: r => removed r
  | PRemove o :: r => oid o :: removed r
  end.

Lemma run_spec ops : forall p, Inv p -> valid_ops p ops ->
  exists p', plane_run p ops = Some p' /\ Inv p' /\ pseq p' = pseq p ++ inserted ops /\
    forall i, In i (plive p') <-> (In i (plive p) \/ In i (map oid (inserted ops))) /\ ~ In i (removed ops).
Proof.
  induction ops as [|op r IH]; cbn [plane_run valid_ops inserted removed]; intros p I V.
  - exists p. rewrite app_nil_r. cbn. tauto.
  - destruct V as [V1 V2]. destruct op as [o|o]; cbn [plane_step] in *.
    + destruct (IH _ (Inv_add p o I V1) V2) as (p' & E & I' & Hs & Hl). exists p'.
      rewrite (plane_add_fresh p o I (proj1 V1)) in Hl. cbn [plane_add pseq] in Hs. rewrite <- app_assoc in Hs.
      split; [exact E|]. split; [exact I'|]. split; [exact Hs|].
      intros i. rewrite Hl, in_app_iff. cbn [map In]. tauto.
    + destruct V1 as [Hin Hlive]. pose proof (plane_remove_live p o Hlive) as E1. rewrite E1 in *.
      destruct (IH _ (Inv_remove p o _ I (conj Hin Hlive) E1) V2) as (p' & E & I' & Hs & Hl). exists p'.
      cbn [pseq plive] in Hs, Hl.
      split; [exact E|]. split; [exact I'|]. split; [exact Hs|].
      (* the id removed now is not inserted again later: ids are fresh *)
      assert (Hlater : ~ In (oid o) (map oid (inserted r))).
      { pose proof (inv_seq_nodup p' I') as ND. rewrite Hs, map_app in ND.
        intros H. apply (NoDup_app_disj _ _ (oid o) ND); [apply in_map, Hin|exact H]. }
      intros i. rewrite Hl, remove_nat_In by apply (inv_live_nodup p I). cbn [In].
      destruct (Nat.eq_dec (oid o) i) as [<-|NE]; intuition congruence.
Qed.

(* a batch of insertions of fresh objects into a plane whose objects are all live, as make_plane does them *)
Lemma Inv_adds objs : forall p, Inv p -> NoDup (map oid (pseq p ++ objs)) -> Forall (fun o => wf_box (obox o)) objs ->
  (forall o, In o (pseq p) -> In (oid o) (plive p)) ->
  let p' := fold_left plane_add objs p in
  Inv p' /\ pseq p' = pseq p ++ objs /\ (forall o, In o (pseq p') -> In (oid o) (plive p')).
Proof.
  induction objs as [|o r IH]; intros p I Hnd Hwf Hl; cbn [fold_left].
  - rewrite app_nil_r. auto.
  - inversion Hwf as [|? ? Ho Hr]; subst.
    assert (Hfresh : ~ In (oid o) (map oid (pseq p))).
    { rewrite map_app in Hnd. intros H. apply (NoDup_app_disj _ _ _ Hnd H). left. reflexivity. }
    destruct (IH (plane_add p o)) as (I' & Hs & Hl'); cbn [plane_add pseq plive] in *.
    + apply Inv_add; [exact I|split; assumption].
    + rewrite <- app_assoc. exact Hnd.
    + exact Hr.
    + intros x Hx. apply in_app_or in Hx.
      destruct (mem_nat (oid o) (plive p)) eqn:E, Hx as [Hx|[<-|[]]]; rewrite ?in_app_iff; auto.
      * apply mem_nat_In, E.
      * right. left. reflexivity.
    + rewrite <- app_assoc in Hs. auto.
Qed.

Lemma find_scan_spec qb : forall cands done,
  (forall a b, In a cands -> In b cands -> oid a = oid b -> a = b) ->
  NoDup (map oid (find_scan qb cands done)) /\
  forall o, In o (find_scan qb cands done) <->
            In o cands /\ ~ In (oid o) done /\ no_overlap (obox o) qb = false.
Proof.
  induction cands as [|x r IH]; intros done Hinj; cbn [find_scan].
  - split; [constructor|]. cbn. tauto.
  - assert (Hinj' : forall a b, In a r -> In b r -> oid a = oid b -> a = b)
      by (intros a b Ha Hb; apply Hinj; right; assumption).
    assert (K : forall o, In o r -> oid x = oid o -> x = o) by (intros o Ho; apply Hinj; [left|right]; auto).
    destruct (mem_nat (oid x) done) eqn:Ed; [apply mem_nat_In in Ed|apply mem_nat_nIn in Ed].
    + destruct (IH done Hinj') as [N S]. split; [exact N|]. intros o. rewrite S. cbn [In].
      split; [tauto|]. intros ([<-|H] & H2 & H3); tauto.
    + destruct (IH (oid x :: done) Hinj') as [N S].
      destruct (no_overlap (obox x) qb) eqn:Eo.
      * split; [exact N|]. intros o. rewrite S. cbn [In]. split; [tauto|].
        intros ([<-|H] & H2 & H3); [congruence|]. repeat split; auto.
        intros [E|E]; [|contradiction]. apply (K o H) in E. subst o. congruence.
      * split.
        -- cbn [map]. constructor; [|exact N]. intro H. apply in_map_iff in H.
           destruct H as (o & Ho & Hin). apply S in Hin. apply (proj1 (proj2 Hin)). left. auto.
        -- intros o. cbn [In]. rewrite S. cbn [In]. split.
           ++ intros [<-|(H1 & H2 & H3)]; [auto|tauto].
           ++ intros ([<-|H] & H2 & H3); [left; reflexivity|].
              destruct (Nat.eq_dec (oid x) (oid o)) as [E|NE]; [left; apply (K o H E)|]. right. tauto.
Qed.

Lemma find_bruteforce p qb :
  Inv p -> wf_box qb ->
  NoDup (map oid (plane_find p qb)) /\
  forall o, In o (plane_find p qb) <->
            In o (pseq p) /\ In (oid o) (plive p) /\ overlaps (obox o) qb.
Proof.
  intros I Hq. unfold plane_find.
  set (cands := flat_map (pgrid p) (getrange (pbounds p) qb)).
  assert (Hc : forall o, In o cands <-> exists k, In k (getrange (pbounds p) qb) /\
               In o (pseq p) /\ In (oid o) (plive p) /\ In k (getrange (pbounds p) (obox o))).
  { intros o. unfold cands. rewrite in_flat_map. setoid_rewrite (inv_grid p I). reflexivity. }
  destruct (find_scan_spec qb cands []) as (N & S).
  { intros a b Ha Hb. apply Hc in Ha, Hb. destruct Ha as (_ & _ & Ha & _), Hb as (_ & _ & Hb & _).
    apply (NoDup_map_inj oid _ (inv_seq_nodup p I)); assumption. }
  split; [exact N|]. intros o. rewrite S, Hc. unfold overlaps. split.
  - intros ((k & _ & H1 & H2 & _) & _ & H3). auto.
  - intros (H1 & H2 & H3). split; [|auto].
    destruct (share_cell (pbounds p) (obox o) qb) as (k & K1 & K2); auto.
    + apply (inv_bounds p I).
    + apply (inv_seq_wf p I); auto.
    + exists k. auto.
Qed.

Lemma iter_after_ops pb ops :
  wf_bounds pb -> valid_ops (plane_init pb) ops ->
  exists p, plane_run (plane_init pb) ops = Some p /\
    plane_iter p = filter (fun o => negb (mem_nat (oid o) (removed ops))) (inserted ops) /\
    NoDup (map oid (plane_iter p)).
Proof.
  intros Hb V.
  destruct (run_spec ops (plane_init pb) (Inv_init pb Hb) V) as (p & E & I & Hseq & Hlive).
  exists p. split; [exact E|]. cbn [plane_init pseq plive app] in Hseq, Hlive.
  unfold plane_iter. split; [|apply NoDup_map_filter, (inv_seq_nodup p I)].
  rewrite Hseq. apply filter_ext_in. intros o Ho.
  destruct (mem_nat (oid o) (plive p)) eqn:E1, (mem_nat (oid o) (removed ops)) eqn:E2; cbn; auto.
  - apply mem_nat_In in E1, E2. apply Hlive in E1. tauto.
  - apply mem_nat_nIn in E1, E2. exfalso. apply E1. apply Hlive. split; auto.
    right. apply in_map. exact Ho.
Qed.
