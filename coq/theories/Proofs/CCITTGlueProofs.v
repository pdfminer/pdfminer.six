(* C19, glue: the bit string of a T.6 element drives the bit-level parser to exactly the decoder's reaction to that
   element; hence, for encodings without EncodedByteAlign, the bytes of any admissible encoding of a bitmap decode to
   the bitmap. *)
From Coq Require Import ZArith List Bool Lia.
From PdfV Require Import Gen.CCITTTables Model.CCITT Proofs.CCITTProofs Proofs.CCITTModeProofs.
Import ListNotations.
Open Scope Z_scope.

(* the part of the parser state the decoding functions read and write; the rest (table selector, acceptor, bits read
   since the last accept, pending run lengths) is scratch *)
Definition core (s : g4) := (gwidth s, galign s, refline s, curline s, gcurpos s, gcolor s, lines s).
Definition ready (s : g4) : Prop := gacc s = AMode /\ gbits s = [].

Lemma core_goto s t a n1 n2 : core (goto s t a n1 n2) = core s.
Proof. reflexivity. Qed.
Lemma core_with_bits s p : core (with_bits s p) = core s.
Proof. reflexivity. Qed.

(* every operation of the decoder copies the scratch fields, so it acts on [scratch_of y x] as on [y]: this one
   equation gives all the congruences *)
Definition scratch_of (y x : g4) : g4 :=
  mkG4 (gwidth y) (galign y) (refline y) (curline y) (gcurpos y) (gcolor y) (lines y) (gtab x) (gacc x) (gbits x) (gn1 x) (gn2 x).
Lemma core_eq_scratch x y : core x = core y -> x = scratch_of y x.
Proof. destruct x. unfold core, scratch_of. cbn. intros [= -> -> -> -> -> -> ->]. reflexivity. Qed.

Lemma core_fields x y : core x = core y -> galign x = galign y /\ gcolor x = gcolor y /\ lines x = lines y.
Proof. intros H. rewrite (core_eq_scratch x y H). auto. Qed.
Lemma core_apply_op x y o : core x = core y -> core (apply_op x o) = core (apply_op y o).
Proof. intros H. rewrite (core_eq_scratch x y H). destruct o; reflexivity. Qed.
Lemma core_flush x y : core x = core y -> core (fst (flush_line x)) = core (fst (flush_line y)).
Proof.
  intros H. rewrite (core_eq_scratch x y H). unfold flush_line. cbn [gwidth gcurpos scratch_of].
  destruct (gwidth y <=? gcurpos y); reflexivity.
Qed.
Lemma core_apply_flush x y o : core x = core y -> core (apply_flush x o) = core (apply_flush y o).
Proof. intros H. apply core_flush, core_apply_op, H. Qed.

Definition flushes (x : g4) : bool := gwidth x <=? gcurpos x.
Lemma flushes_core x y : core x = core y -> flushes x = flushes y.
Proof. intros H. rewrite (core_eq_scratch x y H). reflexivity. Qed.

Definition outcome (stop : bool) (x : g4) : bres := if stop then BSkip x else BCont x.

Lemma after_coding_cases x : exists x',
  after_coding x = outcome (flushes x && galign x) x' /\ ready x' /\ core x' = core (fst (flush_line x)).
Proof.
  unfold after_coding, flush_line, flushes. destruct (gwidth x <=? gcurpos x); [destruct (galign x)|];
    eexists; (split; [reflexivity|split; [split|]; reflexivity]).
Qed.

(* [x] reads the bits, [s] is the state the mode layer reasons about; they agree up to scratch *)
Lemma after_coding_reads x bits y s o : reads x bits (after_coding y) -> core y = core (apply_op s o) ->
  exists x', reads x bits (outcome (flushes (apply_op s o) && galign s) x') /\ ready x' /\ core x' = core (apply_flush s o).
Proof.
  intros R C. destruct (after_coding_cases y) as (x' & E & Rx & Cx). exists x'.
  rewrite E, (flushes_core _ _ C), (proj1 (core_fields _ _ C)), (proj2 (proj2 (proj2 (apply_op_frame s o)))) in R.
  split; [exact R|]. split; [exact Rx|]. rewrite Cx. apply core_flush, C.
Qed.

Definition sum_mk (mk : list (Z * list bool)) : Z := fold_right (fun e a => fst e + a) 0 mk.
Definition ctable (c : Z) : list (Z * list bool) := match colour_table c with TBlack => BLACK | _ => WHITE end.
(* a run length n in colour c: any make-up codes and one terminating code adding up to n *)
Definition runcode (c n : Z) (bits : list bool) : Prop :=
  exists mk t tcode, Forall (fun e => In e (ctable c) /\ 64 <= fst e /\ snd e <> []) mk /\
    In (t, tcode) (ctable c) /\ t < 64 /\ tcode <> [] /\ bits = flat_map snd mk ++ tcode /\ n = sum_mk mk + t.

Inductive elem_code (c : Z) : op -> list bool -> Prop :=
| ec_pass : forall code, In (MP, code) MODE -> elem_code c OPass code
| ec_vert : forall d code, In (MV d, code) MODE -> elem_code c (OVert d) code
| ec_horiz : forall n1 n2 hcode b1 b2, In (MH, hcode) MODE -> runcode c n1 b1 -> runcode (1 - c) n2 b2 ->
    elem_code c (OHoriz n1 n2) (hcode ++ b1 ++ b2).

(* the bits of an element, read from a state between elements, make the parser react as the decoder does to the
   element, and stop (with ByteSkip) exactly if that completes the line under EncodedByteAlign *)
Theorem elem_reads x s o bits : ready x -> core x = core s -> elem_code (gcolor s) o bits ->
  exists x', reads x bits (outcome (flushes (apply_op s o) && galign s) x') /\ ready x' /\ core x' = core (apply_flush s o).
Proof.
  intros [Ha Hb] C He. rewrite <- (proj1 (proj2 (core_fields x s C))) in He.
  destruct He as [code Hin|d code Hin|n1 n2 hcode b1 b2 Hin R1 R2].
  - apply (after_coding_reads x code (do_pass x)); [|exact (core_apply_op x s OPass C)].
    exact (read_mode x MP code Ha Hb Hin ltac:(discriminate)).
  - apply (after_coding_reads x code (do_vertical x d)); [|exact (core_apply_op x s (OVert d) C)].
    exact (read_mode x (MV d) code Ha Hb Hin ltac:(discriminate)).
  - destruct R1 as (mk1 & t1 & tc1 & F1 & I1 & L1 & N1 & -> & ->).
    destruct R2 as (mk2 & t2 & tc2 & F2 & I2 & L2 & N2 & -> & ->).
    pose proof (reads_feed _ _ _ (read_mode x MH hcode Ha Hb Hin ltac:(discriminate))) as W. cbn [accept_mode] in W.
    set (x1 := goto x (colour_table (gcolor x)) AH1 0 (gn2 x)) in W.
    pose proof (run_length_h1 mk1 x1 t1 tc1 eq_refl eq_refl eq_refl F1 I1 L1 N1) as H1.
    set (x2 := goto (set_color x1 (1 - gcolor x1)) (colour_table (1 - gcolor x1)) AH2 (gn1 x1 + sum_mk mk1 + t1) 0) in H1.
    pose proof (run_length_h2 mk2 x2 t2 tc2 eq_refl eq_refl eq_refl F2 I2 L2 N2) as H2. cbv zeta in H2.
    apply (after_coding_reads x _ _ s _ (reads_app _ _ _ _ _ W (reads_app _ _ _ _ _ H1 H2))).
    (* mode code, first run, second run: x -> x1 -> x2 -> the reaction; up to scratch, x2 is x in the other colour
       with the first run length stored, so the reaction is do_horizontal on x with the two run lengths *)
    assert (E1 : gn1 x2 = sum_mk mk1 + t1) by apply Z.add_0_l.
    assert (E2 : gn2 x2 + sum_mk mk2 + t2 = sum_mk mk2 + t2) by (f_equal; apply Z.add_0_l).
    assert (E3 : 1 - gcolor x2 = gcolor x) by (change (1 - (1 - gcolor x) = gcolor x); lia).
    fold (sum_mk mk2). rewrite E1, E2, E3. exact (core_apply_op (set_color (add_run x2 (sum_mk mk2)) (gcolor x)) s (OHoriz _ _) C).
Qed.

(* a sequence of elements and their bits, the colour threaded through the decoder's reactions *)
Inductive ops_bits : g4 -> list op -> list bool -> Prop :=
| ob_nil : forall s, ops_bits s [] []
| ob_cons : forall s o ops b bs, elem_code (gcolor s) o b -> ops_bits (apply_flush s o) ops bs ->
    ops_bits s (o :: ops) (b ++ bs).

Theorem ops_feed : forall ops s bits, ops_bits s ops bits -> forall x, ready x -> core x = core s -> galign s = false ->
  exists x', feed_bits x bits = BCont x' /\ ready x' /\ core x' = core (fold_left apply_flush ops s).
Proof.
  intros ops s bits H. induction H as [s|s o ops b bs He Hrest IH]; intros x Rx Cx Hal.
  - exists x. cbn. auto.
  - destruct (elem_reads x s o b Rx Cx He) as (x1 & E1 & R1 & C1).
    rewrite Hal, andb_false_r in E1. rewrite feed_bits_app, (reads_feed _ _ _ E1).
    apply (IH x1 R1 C1). rewrite galign_apply_flush. exact Hal.
Qed.

(* one statement for the two ways the bits of whole bytes can end well; the other outcomes are not needed *)
Lemma feedbytes_flat : forall data s,
  match feed_bits s (flat_map bits_of_byte data) with
  | BCont x | BEOFB x => feedbytes s data = GOk x
  | _ => True
  end.
Proof.
  induction data as [|byte r IH]; intros s; cbn [flat_map feedbytes]; [reflexivity|].
  rewrite feed_bits_app. destruct (feed_bits s (bits_of_byte byte)); try exact I; [apply IH|reflexivity].
Qed.

Lemma decode_lines data w al rv s : feedbytes (g4_init w al) data = GOk s ->
  ccittfaxdecode data w al rv = DOk (flat_map (output_line rv) (rev (lines s))).
Proof. intros F. unfold ccittfaxdecode. rewrite F. reflexivity. Qed.

(* what may follow the last element: bits that neither add a line nor make the parser fail *)
Definition harmless (tail : list bool) : Prop :=
  forall x, ready x -> exists x', (feed_bits x tail = BCont x' \/ feed_bits x tail = BEOFB x') /\ lines x' = lines x.

(* bytes whose bits are the codes of an admissible coding of the bitmap, followed by a harmless tail, decode
   (without EncodedByteAlign) to exactly the rows, each packed by output_line *)
Theorem g4_bytes_decode_tail w rows ops bits tail data reversed : 0 < w ->
  page_coding (white_line w) rows ops -> ops_bits (g4_init w false) ops bits ->
  harmless tail -> flat_map bits_of_byte data = bits ++ tail ->
  ccittfaxdecode data w false reversed = DOk (flat_map (output_line reversed) rows).
Proof.
  intros Hw P B Ht Hd.
  destruct (ops_feed ops _ bits B (g4_init w false)) as (x & Ex & Rx & Cx); [split; reflexivity|reflexivity|reflexivity|].
  destruct (Ht x Rx) as (x' & E & L).
  rewrite <- (page_from_init w false rows ops Hw P), <- (proj2 (proj2 (core_fields _ _ Cx))), <- L.
  apply decode_lines. pose proof (feedbytes_flat data (g4_init w false)) as F.
  rewrite Hd, feed_bits_app, Ex in F. destruct E as [E|E]; rewrite E in F; exact F.
Qed.

(* a proper prefix of a mode code only moves the parser down the trie *)
Lemma harmless_proper m tail r : In (m, tail ++ r) MODE -> r <> [] -> harmless tail.
Proof.
  intros Hin Hr x [Ha Hb]. exists (with_bits x tail). split; [left|exact (f_equal snd (core_with_bits x tail))].
  exact (feed_proper MODE accept_mode x pf_mode fn_mode Hb (step_mode x Ha) m tail r Hin Hr).
Qed.

(* zero padding up to the byte boundary begins the end-of-facsimile-block code, eleven zeros and a one, twice *)
Lemma harmless_zeros k : (k <= 7)%nat -> harmless (repeat false k).
Proof.
  intros Hk. apply (harmless_proper ME _ (repeat false (11 - k) ++ true :: repeat false 11 ++ [true])).
  - rewrite app_assoc, <- repeat_app. replace (k + (11 - k))%nat with 11%nat by lia.
    repeat (first [left; reflexivity|right]).
  - destruct (11 - k)%nat eqn:E; [lia|discriminate].
Qed.

(* the end-of-facsimile-block code stops the decoder, whatever follows *)
Lemma harmless_eofb eofb junk : In (ME, eofb) MODE -> harmless (eofb ++ junk).
Proof.
  intros He x [Ha Hb]. exists (with_bits x (removelast eofb)). split; [right|reflexivity].
  rewrite feed_bits_app, (reads_feed _ _ _ (read_mode_at x ME eofb Ha Hb He)). reflexivity.
Qed.

Theorem g4_bytes_decode w rows ops bits data k reversed : 0 < w ->
  page_coding (white_line w) rows ops -> ops_bits (g4_init w false) ops bits ->
  flat_map bits_of_byte data = bits ++ repeat false k -> (k <= 7)%nat ->
  ccittfaxdecode data w false reversed = DOk (flat_map (output_line reversed) rows).
Proof.
  intros Hw P B Hd Hk.
  exact (g4_bytes_decode_tail w rows ops bits (repeat false k) data reversed Hw P B (harmless_zeros k Hk) Hd).
Qed.
