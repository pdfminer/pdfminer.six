(* C19, mode layer: decoding the pass / vertical / horizontal elements a conforming T.6 encoder emits for a row,
   against the reference row, rebuilds exactly the row; by induction over rows, a whole page. *)
From Coq Require Import ZArith List Bool Lia.
From PdfV Require Import Model.CCITT.
Import ListNotations.
Open Scope Z_scope.

Definition bin (l : list Z) : Prop := Forall (fun p => p = 0 \/ p = 1) l.
Definition wid (l : list Z) : Z := Z.of_nat (length l).
(* pixel left of the line start: the imaginary white element of T.6 *)
Definition pxw (l : list Z) (i : Z) : Z := if i <? 0 then 1 else pix l i.

Lemma wid_length a b : length a = length b -> wid a = wid b.
Proof. unfold wid. congruence. Qed.
Lemma length_white_line w : length (white_line w) = Z.to_nat w.
Proof. apply repeat_length. Qed.
Lemma wid_white_line w : 0 <= w -> wid (white_line w) = w.
Proof. intros Hw. unfold wid. rewrite length_white_line. lia. Qed.

Lemma length_fill l : forall a b c k, length (fill l a b c k) = length l.
Proof. induction l as [|p r IH]; intros; cbn [fill length]; [reflexivity|]. rewrite IH. reflexivity. Qed.

Lemma nth_fill l : forall a b c k (j : nat), (j < length l)%nat ->
  nth j (fill l a b c k) 1 = if (a <=? k + Z.of_nat j) && (k + Z.of_nat j <? b) then c else nth j l 1.
Proof.
  induction l as [|p r IH]; intros a b c k j Hj; [cbn in Hj; lia|].
  cbn [fill]. destruct j as [|j].
  - cbn [nth]. replace (k + Z.of_nat 0) with k by lia. reflexivity.
  - cbn [nth length] in *. rewrite IH by lia. replace (k + 1 + Z.of_nat j) with (k + Z.of_nat (S j)) by lia. reflexivity.
Qed.

Lemma pix_fill l a b c i : 0 <= i < wid l ->
  pix (fill l a b c 0) i = if (a <=? i) && (i <? b) then c else pix l i.
Proof.
  intros Hi. unfold pix, wid in *. rewrite nth_fill by lia. rewrite Z2Nat.id by lia. reflexivity.
Qed.

Lemma pix_bin l i : bin l -> 0 <= i < wid l -> pix l i = 0 \/ pix l i = 1.
Proof.
  intros Hb Hi. unfold pix, wid in *. unfold bin in Hb. rewrite Forall_forall in Hb. apply Hb. apply nth_In. lia.
Qed.

Lemma pix_ext a b : length a = length b -> (forall i, 0 <= i < wid a -> pix a i = pix b i) -> a = b.
Proof.
  intros Hl H. apply (nth_ext a b 1 1 Hl). intros n Hn. specialize (H (Z.of_nat n)).
  unfold pix, wid in H. rewrite Nat2Z.id in H. apply H. lia.
Qed.

(* a candidate for b1 at x: the reference pixel left of x has the current colour, the one at x has not *)
Definition b1_at (ref : list Z) (c x : Z) : Prop := pxw ref (x - 1) = c /\ pix ref x <> c.
(* b1: first such element to the right of a0, or the end of the line *)
Definition is_b1 (ref : list Z) (a0 c b : Z) : Prop :=
  a0 < b <= wid ref /\ 0 <= b /\ (b < wid ref -> b1_at ref c b) /\ (forall i, a0 < i < b -> 0 <= i -> ~ b1_at ref c i).
(* b2: the next changing element after b1 (back to the current colour), or the end of the line *)
Definition b2_at (ref : list Z) (c x : Z) : Prop := pxw ref (x - 1) <> c /\ pix ref x = c.
Definition is_b2 (ref : list Z) (c b1 b : Z) : Prop :=
  b1 <= b <= wid ref /\ 0 <= b /\ (b < wid ref -> b2_at ref c b) /\ (forall i, b1 <= i < b -> 0 <= i -> ~ b2_at ref c i).
(* a1 on the coding line: end of the run of the current colour that starts at a0 (a0 = -1: at the line start) *)
Definition is_a1 (row : list Z) (a0 c a : Z) : Prop :=
  Z.max 0 a0 <= a <= wid row /\ (forall i, Z.max 0 a0 <= i < a -> pix row i = c) /\ (a < wid row -> pix row a <> c).

(* b1 and b2 are both "the first position from lo on with property P, or else the end w"; [is_b2] is literally this *)
Definition first_at (P : Z -> Prop) (w lo b : Z) : Prop :=
  lo <= b <= w /\ 0 <= b /\ (b < w -> P b) /\ (forall i, lo <= i < b -> 0 <= i -> ~ P i).

Lemma first_at_unique P w lo b b' : first_at P w lo b -> first_at P w lo b' -> b = b'.
Proof.
  intros (H1 & H2 & H3 & H4) (H1' & H2' & H3' & H4'). destruct (Z.lt_trichotomy b b') as [L|[E|L]]; [|exact E|].
  - exfalso. apply (H4' b); try lia. apply H3. lia.
  - exfalso. apply (H4 b'); try lia. apply H3'. lia.
Qed.

Lemma is_b1_first ref a0 c b : is_b1 ref a0 c b <-> first_at (b1_at ref c) (wid ref) (a0 + 1) b.
Proof.
  unfold is_b1, first_at. split; intros (H1 & H2 & H3 & H4); (split; [lia|]); (split; [exact H2|]); (split; [exact H3|]);
    intros i Hi; apply H4; lia.
Qed.

Lemma is_b1_unique ref a0 c b b' : is_b1 ref a0 c b -> is_b1 ref a0 c b' -> b = b'.
Proof. rewrite !is_b1_first. apply first_at_unique. Qed.
Lemma is_b2_unique ref c b1 b b' : is_b2 ref c b1 b -> is_b2 ref c b1 b' -> b = b'.
Proof. apply first_at_unique. Qed.

(* the shape of the two search loops of _do_vertical / _do_pass: stop at the end of the line or where the test holds;
   position 0, which has no pixel to its left, has a test of its own; f is instantiated with fun n x => find_b1 n ref c x *)
Lemma search_first (P : Z -> Prop) (t0 t1 : Z -> bool) (f : nat -> Z -> Z) w : 0 < w ->
  (t0 0 = true <-> P 0) -> (forall x, 0 < x < w -> t1 x = true <-> P x) ->
  (forall n x, f (S n) x = if x =? 0 then if t0 x then x else f n (x + 1)
                           else if (x =? w) || t1 x then x else f n (x + 1)) ->
  forall fuel x, 0 <= x <= w -> w - x < Z.of_nat fuel -> first_at P w x (f fuel x).
Proof.
  intros HW H0 H1 Hf. set (test x := if x =? 0 then t0 x else t1 x).
  assert (Htest : forall x, 0 <= x < w -> test x = true <-> P x).
  { intros x Hx. unfold test. destruct (x =? 0) eqn:E; [replace x with 0 by lia; exact H0|apply H1; lia]. }
  assert (Hstep : forall n x, f (S n) x = if (x =? w) || test x then x else f n (x + 1)).
  { intros n x. rewrite Hf. unfold test. destruct (x =? 0) eqn:E; [|reflexivity].
    assert (x =? w = false) as -> by lia. reflexivity. }
  induction fuel as [|n IH]; intros x Hx Hfuel; [lia|].
  rewrite Hstep. destruct (x =? w) eqn:Ew; [|destruct (test x) eqn:T]; cbn [orb].
  - repeat split; lia.
  - repeat split; try lia. intros _. apply Htest; [lia|exact T].
  - destruct (IH (x + 1)) as (I1 & I2 & I3 & I4); [lia|lia|]. repeat split; try lia; [exact I3|].
    intros i Hi Hi0. destruct (Z.eq_dec i x) as [->|Hne]; [|apply I4; lia].
    intros HP. apply Htest in HP; [congruence|lia].
Qed.

(* the decoder's searches compute b1 and b2; at x = 0 [pxw] supplies the imaginary white pixel, and the test `c =? 0`
   of find_b2 agrees with it only for a binary colour *)
Lemma decoder_b1 ref c a0 : 0 < wid ref -> -1 <= a0 < wid ref ->
  is_b1 ref a0 c (find_b1 (S (length ref)) ref c (a0 + 1)).
Proof.
  intros HW Ha. apply is_b1_first.
  apply (search_first (b1_at ref c) (fun x => (c =? 1) && negb (pix ref x =? c))
           (fun x => (pix ref (x - 1) =? c) && negb (pix ref x =? c)) (fun n x => find_b1 n ref c x) (wid ref) HW);
    [| |intros; reflexivity|lia|unfold wid; lia].
  - unfold b1_at, pxw. change (0 - 1 <? 0) with true. cbv iota. generalize (pix ref 0). intros p. lia.
  - intros x Hx. unfold b1_at, pxw. assert (x - 1 <? 0 = false) as -> by lia. lia.
Qed.
Lemma decoder_b2 ref c b1 : 0 < wid ref -> (c = 0 \/ c = 1) -> 0 <= b1 <= wid ref ->
  is_b2 ref c b1 (find_b2 (S (length ref)) ref c b1).
Proof.
  intros HW Hc Hb.
  apply (search_first (b2_at ref c) (fun x => (c =? 0) && (pix ref x =? c))
           (fun x => negb (pix ref (x - 1) =? c) && (pix ref x =? c)) (fun n x => find_b2 n ref c x) (wid ref) HW);
    [| |intros; reflexivity|exact Hb|unfold wid; lia].
  - unfold b2_at, pxw. change (0 - 1 <? 0) with true. cbv iota. generalize (pix ref 0). intros p. lia.
  - intros x Hx. unfold b2_at, pxw. assert (x - 1 <? 0 = false) as -> by lia. lia.
Qed.

Inductive op := OPass | OVert (d : Z) | OHoriz (n1 n2 : Z).

(* admissible coding of [row] against [ref] from the coding state (a0, colour): T.6 section 2.2 *)
Inductive coding (ref row : list Z) : Z -> Z -> list op -> Prop :=
| c_done : forall c, coding ref row (wid row) c []
| c_pass : forall a0 c b1 b2 a1 ops, a0 < wid row ->
    is_b1 ref a0 c b1 -> is_b2 ref c b1 b2 -> is_a1 row a0 c a1 -> b2 < a1 ->
    coding ref row b2 c ops -> coding ref row a0 c (OPass :: ops)
| c_vert : forall a0 c b1 a1 d ops, a0 < wid row ->
    is_b1 ref a0 c b1 -> is_a1 row a0 c a1 -> a1 = b1 + d -> -3 <= d <= 3 ->
    coding ref row a1 (1 - c) ops -> coding ref row a0 c (OVert d :: ops)
| c_horiz : forall a0 c a1 a2 ops, a0 < wid row ->
    is_a1 row a0 c a1 -> is_a1 row a1 (1 - c) a2 ->
    coding ref row a2 c ops -> coding ref row a0 c (OHoriz (a1 - Z.max 0 a0) (a2 - a1) :: ops).

Definition apply_op (s : g4) (o : op) : g4 :=
  match o with OPass => do_pass s | OVert d => do_vertical s d | OHoriz n1 n2 => do_horizontal s n1 n2 end.

Lemma apply_op_frame s o : refline (apply_op s o) = refline s /\ gwidth (apply_op s o) = gwidth s /\
  lines (apply_op s o) = lines s /\ galign (apply_op s o) = galign s.
Proof. destruct o; repeat split; reflexivity. Qed.

(* decoder state in the middle of a row *)
Record rowinv (ref row : list Z) (s : g4) : Prop := {
  ri_w : gwidth s = wid row;
  ri_ref : refline s = ref;
  ri_len : length (curline s) = length row;
  ri_col : gcolor s = 0 \/ gcolor s = 1;
  ri_pos : -1 <= gcurpos s <= wid row;
  ri_start : gcurpos s < 0 -> gcolor s = 1;
  ri_at : 0 <= gcurpos s < wid row -> pix row (gcurpos s) = gcolor s;
  ri_agree : forall i, 0 <= i < gcurpos s -> pix (curline s) i = pix row i
}.

Section Row.
Variables ref row : list Z.
Hypothesis Hlen : length ref = length row.
Hypothesis HW : 0 < wid row.
Hypothesis Hbin : bin row.

Lemma a1_after s a1 : rowinv ref row s -> is_a1 row (gcurpos s) (gcolor s) a1 -> gcurpos s < wid row ->
  gcurpos s < a1 \/ (gcurpos s = -1 /\ a1 = 0).
Proof.
  intros I (Hr & Hrun & Hend) Hp. destruct (Z_lt_le_dec (gcurpos s) 0) as [Hn|Hn].
  - pose proof (ri_pos _ _ _ I). lia.
  - left. destruct (Z.eq_dec a1 (gcurpos s)) as [E|E]; [|lia].
    exfalso. apply Hend; [lia|]. rewrite E. apply (ri_at _ _ _ I). lia.
Qed.

Lemma ri_wid s : rowinv ref row s -> wid (curline s) = wid row.
Proof. intros I. apply wid_length, (ri_len _ _ _ I). Qed.

Lemma rowinv_set_line s cl p c : rowinv ref row s -> length cl = length row -> (c = 0 \/ c = 1) -> 0 <= p <= wid row ->
  (p < wid row -> pix row p = c) -> (forall i, 0 <= i < p -> pix cl i = pix row i) ->
  rowinv ref row (set_line s cl p c).
Proof.
  intros I Hl Hc Hp Hat Hag. constructor; cbn [set_line gwidth refline curline gcolor gcurpos]; try assumption;
    [apply I|apply I|lia|lia|intros; apply Hat; lia].
Qed.

Lemma find_b1_rowinv s b1 : rowinv ref row s -> gcurpos s < wid row -> is_b1 ref (gcurpos s) (gcolor s) b1 ->
  find_b1 (S (length (refline s))) (refline s) (gcolor s) (gcurpos s + 1) = b1.
Proof.
  intros I Hp Hb1. pose proof (ri_pos _ _ _ I). pose proof (wid_length _ _ Hlen). rewrite (ri_ref _ _ _ I).
  apply (is_b1_unique ref (gcurpos s) (gcolor s)); [apply decoder_b1; lia|exact Hb1].
Qed.

Lemma step_vert s b1 a1 d : rowinv ref row s -> gcurpos s < wid row ->
  is_b1 ref (gcurpos s) (gcolor s) b1 -> is_a1 row (gcurpos s) (gcolor s) a1 -> a1 = b1 + d ->
  rowinv ref row (do_vertical s d) /\ gcurpos (do_vertical s d) = a1 /\ gcolor (do_vertical s d) = 1 - gcolor s.
Proof.
  intros I Hp Hb1 (Hr & Hrun & Hend) Hd.
  pose proof (ri_pos _ _ _ I) as Pp. pose proof (ri_col _ _ _ I) as Pc. pose proof (ri_wid s I) as Hw.
  unfold do_vertical. rewrite (find_b1_rowinv s b1 I Hp Hb1), (ri_w _ _ _ I), <- Hd.
  replace (Z.max 0 (Z.min (wid row) a1)) with a1 by lia.
  set (x0 := Z.max 0 (gcurpos s)) in *. assert (E1 : a1 <? x0 = false) by lia. rewrite E1.
  split; [|split; reflexivity]. apply (rowinv_set_line s _ a1 (1 - gcolor s) I); try lia.
  - destruct (x0 <? a1); [rewrite length_fill|]; apply (ri_len _ _ _ I).
  - intros Hi. specialize (Hend Hi). destruct (pix_bin row a1 Hbin ltac:(lia)); lia.
  - intros i Hi. destruct (x0 <? a1) eqn:E2; [|apply (ri_agree _ _ _ I); lia].
    rewrite pix_fill by lia. destruct ((x0 <=? i) && (i <? a1)) eqn:E3; [symmetry; apply Hrun; lia|apply (ri_agree _ _ _ I); lia].
Qed.

Lemma step_pass s b1 b2 a1 : rowinv ref row s -> gcurpos s < wid row ->
  is_b1 ref (gcurpos s) (gcolor s) b1 -> is_b2 ref (gcolor s) b1 b2 -> is_a1 row (gcurpos s) (gcolor s) a1 -> b2 < a1 ->
  rowinv ref row (do_pass s) /\ gcurpos (do_pass s) = b2 /\ gcolor (do_pass s) = gcolor s.
Proof.
  intros I Hp Hb1 Hb2 (Hr & Hrun & Hend) Hlt.
  pose proof (ri_pos _ _ _ I) as Pp. pose proof (ri_col _ _ _ I) as Pc. pose proof (wid_length _ _ Hlen) as WE.
  assert (Hb1r : gcurpos s < b1 /\ 0 <= b1 <= wid ref) by (destruct Hb1 as (? & ? & _); lia).
  assert (Eb2 : find_b2 (S (length (refline s))) (refline s) (gcolor s) b1 = b2).
  { rewrite (ri_ref _ _ _ I). apply (is_b2_unique ref (gcolor s) b1); [apply decoder_b2; [lia|exact Pc|lia]|exact Hb2]. }
  destruct Hb2 as (Hb2r & Hb20 & _).
  unfold do_pass. rewrite (find_b1_rowinv s b1 I Hp Hb1), Eb2, (ri_w _ _ _ I).
  split; [|split; reflexivity].
  set (cl0 := if gcurpos s <? 0 then fill (curline s) (wid row - 1) (wid row) (gcolor s) 0 else curline s).
  assert (Hl0 : length cl0 = length row) by (subst cl0; destruct (gcurpos s <? 0); [rewrite length_fill|]; apply (ri_len _ _ _ I)).
  apply (rowinv_set_line s _ b2 (gcolor s) I); try lia.
  - rewrite length_fill. exact Hl0.
  - intros Hi. apply Hrun. lia.
  - intros i Hi. rewrite pix_fill by (rewrite (wid_length _ _ Hl0); lia).
    destruct ((Z.max 0 (gcurpos s) <=? i) && (i <? b2)) eqn:E3; [symmetry; apply Hrun; lia|].
    assert (E : gcurpos s <? 0 = false) by lia. subst cl0. rewrite E. apply (ri_agree _ _ _ I). lia.
Qed.

Lemma step_horiz s a1 a2 : rowinv ref row s ->
  is_a1 row (gcurpos s) (gcolor s) a1 -> is_a1 row a1 (1 - gcolor s) a2 ->
  let s' := do_horizontal s (a1 - Z.max 0 (gcurpos s)) (a2 - a1) in
  rowinv ref row s' /\ gcurpos s' = a2 /\ gcolor s' = gcolor s.
Proof.
  intros I (Hr & Hrun & Hend) (Hr2 & Hrun2 & Hend2). cbv zeta.
  pose proof (ri_pos _ _ _ I) as Pp. pose proof (ri_col _ _ _ I) as Pc. pose proof (ri_wid s I) as Hw.
  unfold do_horizontal. fold (wid (curline s)). rewrite Hw.
  set (x0 := Z.max 0 (gcurpos s)) in *.
  replace (Z.min (wid row) (x0 + Z.max 0 (a1 - x0))) with a1 by lia.
  replace (Z.min (wid row) (a1 + Z.max 0 (a2 - a1))) with a2 by lia.
  split; [|split; reflexivity]. apply (rowinv_set_line s _ a2 (gcolor s) I); try lia.
  - rewrite !length_fill. apply (ri_len _ _ _ I).
  - intros Hi. specialize (Hend2 Hi). destruct (pix_bin row a2 Hbin ltac:(lia)); lia.
  - intros i Hi. rewrite pix_fill by (unfold wid; rewrite length_fill; fold (wid (curline s)); lia).
    destruct ((a1 <=? i) && (i <? a2)) eqn:E3; [symmetry; apply Hrun2; lia|].
    rewrite pix_fill by lia. destruct ((x0 <=? i) && (i <? a1)) eqn:E4; [symmetry; apply Hrun; lia|apply (ri_agree _ _ _ I); lia].
Qed.

Lemma coding_step s o ops : rowinv ref row s -> coding ref row (gcurpos s) (gcolor s) (o :: ops) ->
  gcurpos s < wid row /\ rowinv ref row (apply_op s o) /\
  coding ref row (gcurpos (apply_op s o)) (gcolor (apply_op s o)) ops.
Proof.
  intros I C. inversion C as [|a0 c b1 b2 a1 ops0 Hp Hb1 Hb2 Ha1 Hlt C0|a0 c b1 a1 d ops0 Hp Hb1 Ha1 Hd Hr C0|a0 c a1 a2 ops0 Hp Ha1 Ha2 C0];
    subst; cbn [apply_op]; (split; [exact Hp|]).
  - destruct (step_pass s b1 b2 a1 I Hp Hb1 Hb2 Ha1 Hlt) as (I' & -> & ->). auto.
  - destruct (step_vert s b1 (b1 + d) d I Hp Hb1 Ha1 eq_refl) as (I' & -> & ->). auto.
  - destruct (step_horiz s a1 a2 I Ha1 Ha2) as (I' & -> & ->). auto.
Qed.

Lemma row_finished s : rowinv ref row s -> gcurpos s = wid row -> curline s = row.
Proof.
  intros I Hp. apply pix_ext; [apply (ri_len _ _ _ I)|]. intros i Hi. rewrite (ri_wid s I) in Hi.
  apply (ri_agree _ _ _ I). lia.
Qed.

Lemma coding_nil s : coding ref row (gcurpos s) (gcolor s) [] -> gcurpos s = wid row.
Proof. intros C. inversion C. reflexivity. Qed.

Theorem row_decodes : forall ops s, rowinv ref row s -> coding ref row (gcurpos s) (gcolor s) ops ->
  let s' := fold_left apply_op ops s in
  curline s' = row /\ gcurpos s' = wid row /\ refline s' = ref /\ gwidth s' = gwidth s /\ lines s' = lines s /\ galign s' = galign s.
Proof.
  induction ops as [|o ops IH]; intros s I C; cbv zeta; cbn [fold_left].
  - pose proof (coding_nil s C) as Hp. split; [exact (row_finished s I Hp)|]. split; [exact Hp|]. split; [apply (ri_ref _ _ _ I)|auto].
  - destruct (coding_step s o ops I C) as (_ & I' & C'). destruct (apply_op_frame s o) as (_ & F2 & F3 & F4).
    rewrite <- F2, <- F3, <- F4. exact (IH _ I' C').
Qed.
End Row.

(* the ByteSkip flag of flush_line is dropped here: the mode layer does not see alignment, the glue accounts for it by
   [flushes .. && galign ..] *)
Definition apply_flush (s : g4) (o : op) : g4 := fst (flush_line (apply_op s o)).

Lemma galign_apply_flush s o : galign (apply_flush s o) = galign s.
Proof.
  unfold apply_flush, flush_line. destruct (_ <=? _); apply (apply_op_frame s o).
Qed.

(* where a row starts: all white, before the first pixel, reading white *)
Definition row_start_state (s : g4) (ref : list Z) : Prop :=
  gwidth s = wid ref /\ refline s = ref /\ curline s = white_line (wid ref) /\ gcurpos s = -1 /\ gcolor s = 1.

Lemma row_start ref row s : length ref = length row -> row_start_state s ref -> rowinv ref row s.
Proof.
  intros Hl (Hw & Hr & Hc & Hp & Hcol). rewrite (wid_length _ _ Hl) in Hw, Hc.
  assert (0 <= wid row) by (unfold wid; lia). constructor; try assumption; try lia.
  rewrite Hc, length_white_line. apply Nat2Z.id.
Qed.

Lemma row_start_init w al : 0 <= w -> row_start_state (g4_init w al) (white_line w).
Proof. intros Hw. unfold row_start_state, g4_init. cbn. rewrite (wid_white_line w Hw). auto. Qed.

Lemma flush_mid ref row s : rowinv ref row s -> gcurpos s < wid row -> flush_line s = (s, false).
Proof. intros I Hp. unfold flush_line. rewrite (ri_w _ _ _ I). assert (E : wid row <=? gcurpos s = false) by lia. rewrite E. reflexivity. Qed.

Lemma flush_done s row : gwidth s = wid row -> gcurpos s = wid row -> curline s = row ->
  let s' := fst (flush_line s) in
  row_start_state s' row /\ lines s' = row :: lines s /\ galign s' = galign s.
Proof.
  intros Hw Hp Hc. cbv zeta. unfold flush_line, row_start_state. rewrite Hw, Hp, Z.leb_refl, Hc. cbn. repeat split; reflexivity.
Qed.

Section RowFlush.
Variables ref row : list Z.
Hypothesis Hlen : length ref = length row.
Hypothesis HW : 0 < wid row.
Hypothesis Hbin : bin row.

(* only the last element of a row's coding completes the line *)
Lemma fold_flush : forall ops s, rowinv ref row s -> coding ref row (gcurpos s) (gcolor s) ops -> ops <> [] ->
  fold_left apply_flush ops s = fst (flush_line (fold_left apply_op ops s)).
Proof.
  induction ops as [|o ops IH]; intros s I C Hne; [congruence|].
  destruct (coding_step ref row Hlen HW Hbin s o ops I C) as (_ & I1 & C1). cbn [fold_left].
  destruct ops as [|o' ops']; [reflexivity|].
  destruct (coding_step ref row Hlen HW Hbin _ o' ops' I1 C1) as (Hp1 & _).
  unfold apply_flush at 2. rewrite (flush_mid ref row _ I1 Hp1). apply (IH _ I1 C1). discriminate.
Qed.

Theorem row_decodes_flush : forall ops s, rowinv ref row s -> gcurpos s < wid row ->
  coding ref row (gcurpos s) (gcolor s) ops ->
  let s' := fold_left apply_flush ops s in
  row_start_state s' row /\ lines s' = row :: lines s /\ galign s' = galign s.
Proof.
  intros ops s I Hp C. cbv zeta.
  rewrite (fold_flush ops s I C) by (intros ->; apply coding_nil in C; lia).
  destruct (row_decodes ref row Hlen HW Hbin ops s I C) as (R1 & R2 & _ & R4 & R5 & R6). cbv zeta in *.
  rewrite <- R5, <- R6. apply flush_done; [rewrite R4; apply (ri_w _ _ _ I)|exact R2|exact R1].
Qed.
End RowFlush.

(* a page: every row coded against the row before it (the first against an all-white row) *)
Inductive page_coding : list Z -> list (list Z) -> list op -> Prop :=
| pg_nil : forall ref, page_coding ref [] []
| pg_row : forall ref row rows ops ops', length ref = length row -> bin row ->
    coding ref row (-1) 1 ops -> page_coding row rows ops' -> page_coding ref (row :: rows) (ops ++ ops').

Lemma row_from_start ref row ops s : length ref = length row -> 0 < wid ref -> bin row -> row_start_state s ref ->
  coding ref row (-1) 1 ops ->
  rowinv ref row s /\ gcurpos s < wid row /\ coding ref row (gcurpos s) (gcolor s) ops /\
  let s' := fold_left apply_flush ops s in
  row_start_state s' row /\ lines s' = row :: lines s /\ galign s' = galign s.
Proof.
  intros Hl HW Hb St C. pose proof (row_start ref row s Hl St) as I. rewrite (wid_length _ _ Hl) in HW.
  destruct St as (_ & _ & _ & S4 & S5). rewrite <- S4 in C at 1. rewrite <- S5 in C.
  assert (Hp : gcurpos s < wid row) by lia.
  split; [exact I|]. split; [exact Hp|]. split; [exact C|]. exact (row_decodes_flush ref row Hl HW Hb ops s I Hp C).
Qed.

Theorem page_decodes : forall ref rows ops, page_coding ref rows ops -> 0 < wid ref ->
  forall s, row_start_state s ref ->
  let s' := fold_left apply_flush ops s in
  lines s' = rev rows ++ lines s /\ galign s' = galign s.
Proof.
  intros ref rows ops P. induction P as [ref|ref row rows ops ops' Hl Hb C P IH]; intros HW s St; cbv zeta.
  - cbn. auto.
  - rewrite fold_left_app. destruct (row_from_start ref row ops s Hl HW Hb St C) as (_ & _ & _ & R1 & R2 & R3).
    rewrite (wid_length _ _ Hl) in HW. destruct (IH HW _ R1) as (Q1 & Q2). cbv zeta in *.
    rewrite Q1, Q2, R2, R3. cbn [rev]. rewrite <- app_assoc. auto.
Qed.

Corollary page_from_init w align rows ops : 0 < w -> page_coding (white_line w) rows ops ->
  rev (lines (fold_left apply_flush ops (g4_init w align))) = rows.
Proof.
  intros Hw P.
  destruct (page_decodes _ rows ops P ltac:(rewrite wid_white_line; lia) (g4_init w align)) as (Q1 & _).
  - apply row_start_init. lia.
  - cbv zeta in Q1. rewrite Q1. cbn [g4_init lines]. rewrite app_nil_r. apply rev_involutive.
Qed.

Fixpoint run_end (fuel : nat) (row : list Z) (c x : Z) : Z :=
  match fuel with
  | O => x
  | S f => if (x <? wid row) && (pix row x =? c) then run_end f row c (x + 1) else x
  end.

Lemma run_end_a1 row c : forall fuel x, 0 <= x <= wid row -> wid row - x <= Z.of_nat fuel ->
  is_a1 row x c (run_end fuel row c x).
Proof.
  unfold is_a1. induction fuel as [|f IH]; intros x Hx Hf; rewrite Z.max_r by lia; cbn [run_end].
  - repeat split; try lia; intros; lia.
  - destruct ((x <? wid row) && (pix row x =? c)) eqn:T; [|repeat split; try lia; intros; lia].
    destruct (IH (x + 1) ltac:(lia) ltac:(lia)) as (R1 & R2 & R3). rewrite Z.max_r in R1, R2 by lia.
    split; [lia|]. split; [|exact R3]. intros i Hi. destruct (Z.eq_dec i x) as [->|Hne]; [lia|apply R2; lia].
Qed.

(* horizontal mode alone codes any row: from a0, the run of the current colour and the run of the other colour
   after it *)
Lemma horizontal_coding_exists ref row : bin row -> 0 < wid row ->
  forall n a0 c, (wid row - a0 <= Z.of_nat n) -> (c = 0 \/ c = 1) ->
  ((a0 = -1 /\ c = 1) \/ (0 <= a0 < wid row /\ pix row a0 = c) \/ a0 = wid row) ->
  exists ops, coding ref row a0 c ops.
Proof.
  intros Hb HW. induction n as [|n IH]; intros a0 c Hn Hc Hst.
  - assert (a0 = wid row) by lia. subst a0. exists []. constructor.
  - destruct (Z.eq_dec a0 (wid row)) as [->|Hlt]; [exists []; constructor|].
    pose proof (run_end_a1 row c (Z.to_nat (wid row)) (Z.max 0 a0) ltac:(lia) ltac:(lia)) as A.
    set (a1 := run_end _ row c _) in A.
    assert (A' : is_a1 row a0 c a1) by (unfold is_a1 in *; rewrite Z.max_r in A by lia; exact A). clear A.
    pose proof A' as (A1 & A2 & A3).
    pose proof (run_end_a1 row (1 - c) (Z.to_nat (wid row)) a1 ltac:(lia) ltac:(lia)) as B.
    set (a2 := run_end _ row (1 - c) a1) in B. pose proof B as (B1 & B2 & B3).
    assert (Hgt : a0 < a2).
    { destruct Hst as [[-> _]|[[Ha Hp]|Ha]]; [lia| |lia]. destruct (Z.eq_dec a1 a0) as [E|E]; [|lia].
      exfalso. rewrite E in A3. apply A3; [lia|exact Hp]. }
    destruct (IH a2 c) as (ops & C); [lia|exact Hc| |].
    { destruct (Z.eq_dec a2 (wid row)) as [E|E]; [right; right; exact E|right; left].
      split; [lia|]. specialize (B3 ltac:(lia)). destruct (pix_bin row a2 Hb ltac:(lia)); lia. }
    exists (OHoriz (a1 - Z.max 0 a0) (a2 - a1) :: ops). apply (c_horiz ref row a0 c a1 a2 ops); [lia|exact A'|exact B|exact C].
Qed.

Theorem every_row_has_a_coding ref row : bin row -> 0 < wid row -> exists ops, coding ref row (-1) 1 ops.
Proof.
  intros Hb HW. apply (horizontal_coding_exists ref row Hb HW (Z.to_nat (wid row + 1))); [lia|auto|auto].
Qed.

Theorem every_page_has_a_coding : forall rows ref, Forall (fun r => length r = length ref /\ bin r) rows -> 0 < wid ref ->
  exists ops, page_coding ref rows ops.
Proof.
  induction rows as [|row rows IH]; intros ref H HW; [exists []; constructor|].
  inversion H as [|? ? [Hl Hb] Hrest]; subst. rewrite <- (wid_length _ _ Hl) in HW. rewrite <- Hl in Hrest.
  destruct (every_row_has_a_coding ref row Hb HW) as (ops & C).
  destruct (IH row Hrest HW) as (ops' & P).
  exists (ops ++ ops'). constructor; [symmetry; exact Hl|exact Hb|exact C|exact P].
Qed.

(* the decoder's reactions to vertical and horizontal elements on a concrete pair of rows: reference 1 1 0 0 0 1 1 1,
   row 1 0 0 0 1 1 0 1 (1 = white) *)
Example coding_example :
  let ref := [1; 1; 0; 0; 0; 1; 1; 1] in let row := [1; 0; 0; 0; 1; 1; 0; 1] in
  let ops := [OVert (-1); OVert (-1); OHoriz 2 1; OVert 0] in
  curline (fold_left apply_op ops (mkG4 8 false ref (white_line 8) (-1) 1 [] TMode AMode [] 0 0)) = row.
Proof. vm_compute. reflexivity. Qed.
