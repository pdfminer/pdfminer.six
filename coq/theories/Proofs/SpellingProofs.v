(* C01: every conformant spelling of a literal string reads back as the string (byte level, on the automaton that
   C14 proves equal to the chunked parser for every buffer size).  First the vocabulary all token kinds share: a token
   under way, its completion at a delimiter, the first byte read from the main state.
   Once the character classes (boolean combinations of comparisons) are unfolded, lia decides them. *)
From Coq Require Import ZArith List Bool Lia.
From PdfV Require Import Gen.LexClasses Model.Lexer Proofs.LexerProofs.
Import ListNotations.
Open Scope Z_scope.

(* What a token in progress must not disturb: the position it started at and the tokens emitted before it. *)
Definition frame : Type := Z * list (Z * token).
Definition fr (st : lst) : frame := (tpos st, toks st).
Definition reading (f : frame) (m : mode) (st : lst) (acc : list Z) : Prop :=
  fr st = f /\ lmode st = m /\ cur st = acc.
Definition completed (f : frame) (st' : lst) (t : token) : Prop :=
  lmode st' = MMain /\ toks st' = (fst f, t) :: snd f.
(* at the delimiter d the token t is emitted, and d is then read in the main state *)
Definition finishes (f : frame) (st : lst) (d : Z) (t : token) : Prop :=
  exists st', completed f st' t /\ step st d = step st' d.

Lemma reading_scan f m st acc p a : reading f m st acc -> scan_class m = Some p ->
  forallb (fun c => negb (p c)) a = true -> reading f m (run st a) (acc ++ a).
Proof.
  intros (<- & <- & <-) Hp Ha. rewrite (run_accum p a st Hp Ha). repeat split.
Qed.

(* s is the whole spelling of t: read from st, which is between tokens (the frame is the position of st and its tokens;
   every use has lmode st = MMain), it leaves t at the position of its first byte, and d is read again after it *)
Definition completes (st : lst) (s : list Z) (d : Z) (t : token) : Prop :=
  exists st', completed (apos st, toks st) st' t /\ forall rest, run st (s ++ d :: rest) = run st' (d :: rest).

Lemma completes_intro st s d t : finishes (apos st, toks st) (run st s) d t -> completes st s d t.
Proof.
  intros (st' & Hc & Hs). exists st'. split; [exact Hc|]. intros rest. rewrite run_app, !run_cons, Hs. reflexivity.
Qed.

Lemma toks_lf st : lmode st = MMain \/ lmode st = MWClose -> toks (step st 10) = toks st.
Proof.
  intros [Hm|Hm]; unfold step.
  - rewrite (step_main_ws st 10 Hm eq_refl). reflexivity.
  - rewrite (step_wclose_other st 10 Hm eq_refl), (step_main_ws (set_mode MMain st) 10 eq_refl eq_refl). reflexivity.
Qed.

Lemma lex_eq pos s : lex pos s = rev (toks (step (run (init pos) s) 10)).
Proof. unfold lex, tokens_of. rewrite run_app. reflexivity. Qed.

Lemma completes_lex pos s t : completes (init pos) s 10 t -> lex pos s = [(pos, t)].
Proof.
  intros (st' & [Hm Ht] & R). unfold lex, tokens_of. rewrite (R []). cbn [run fold_left].
  rewrite toks_lf, Ht by (left; exact Hm). reflexivity.
Qed.

(* the first byte of a token records the position and enters the mode [main_dispatch] picks *)
Lemma start_reading st c m acc : lmode st = MMain -> re_NONSPC c = true ->
  (forall s, main_dispatch s c = set_mode m (set_cur acc s)) -> reading (apos st, toks st) m (step st c) acc.
Proof. intros Hm Hc H. unfold step. rewrite (step_main_start st c Hm Hc), H. repeat split. Qed.

Lemma main_dispatch_number st c : (c =? 45) || (c =? 43) || isdigit c = true ->
  main_dispatch st c = set_mode MNumber (set_cur [c] st).
Proof.
  intros H. assert (E : (c =? 37) = false /\ (c =? 47) = false) by (unfold isdigit in H; lia).
  unfold main_dispatch. destruct E as [-> ->]. rewrite H. reflexivity.
Qed.
Lemma main_dispatch_alpha st c : isalpha c = true -> main_dispatch st c = set_mode MKeyword (set_cur [c] st).
Proof.
  intros H. assert (E : (c =? 37) = false /\ (c =? 47) = false /\ (c =? 45) || (c =? 43) || isdigit c = false /\
                        (c =? 46) = false) by (unfold isalpha, isdigit in *; lia).
  unfold main_dispatch. destruct E as (-> & -> & -> & ->). rewrite H. reflexivity.
Qed.

(* The reader's states inside a literal string; n is the nesting depth of parentheses.  The transition lemmas below
   are named after the state the byte is read in: n_ (SNorm), e_ (SEsc, right after the backslash), o_ (SOct), c_ (SCR). *)
Definition SNorm (f : frame) (n : Z) (st : lst) (acc : list Z) : Prop := fr st = f /\ lmode st = MString /\ cur st = acc /\ paren st = n.
Definition SEsc (f : frame) (n : Z) (st : lst) (acc : list Z) : Prop := fr st = f /\ lmode st = MString1 /\ cur st = acc /\ paren st = n /\ oct st = [].
Definition SOct (f : frame) (n : Z) (st : lst) (acc ds : list Z) : Prop :=
  fr st = f /\ lmode st = MString1 /\ cur st = acc /\ paren st = n /\ oct st = ds /\ ds <> [].
Definition SCR (f : frame) (n : Z) (st : lst) (acc : list Z) : Prop := fr st = f /\ lmode st = MStringCR /\ cur st = acc /\ paren st = n.

Definition octv (ds : list Z) : Z := Z.land (octnum ds) 255.
Definition plain (c : Z) : Prop := c <> 40 /\ c <> 41 /\ c <> 92.

Lemma plain_not_end c : plain c -> re_END_STRING c = false.
Proof. unfold plain, re_END_STRING. lia. Qed.
Lemma esc_not_octal c v : lookup c ESC_STRING = Some v -> re_OCT_STRING c = false.
Proof.
  unfold ESC_STRING, re_OCT_STRING. cbn [lookup]. intros Hl.
  repeat match type of Hl with (if ?c =? ?k then _ else _) = _ => destruct (c =? k) eqn:?; [lia|] end. discriminate.
Qed.

Lemma n_plain f n st acc c : SNorm f n st acc -> plain c -> SNorm f n (step st c) (acc ++ [c]).
Proof.
  intros (<- & Hm & <- & <-) Hpl. unfold step.
  rewrite (step_scan st c re_END_STRING (f_equal scan_class Hm) (plain_not_end c Hpl)). repeat split; auto.
Qed.
Lemma n_backslash f n st acc : SNorm f n st acc -> SEsc f n (step st 92) acc.
Proof. intros (<- & Hm & <- & <-). unfold step. rewrite (step_string_end st 92 Hm eq_refl). repeat split. Qed.
Lemma n_open f n st acc : SNorm f n st acc -> SNorm f (n + 1) (step st 40) (acc ++ [40]).
Proof. intros (<- & Hm & <- & <-). unfold step. rewrite (step_string_end st 40 Hm eq_refl). repeat split. exact Hm. Qed.
Lemma n_close f n st acc : 2 <= n -> SNorm f n st acc -> SNorm f (n - 1) (step st 41) (acc ++ [41]).
Proof.
  intros Hn (<- & Hm & <- & <-). unfold step. rewrite (step_string_end st 41 Hm eq_refl). unfold string_special.
  assert (E : (paren st - 1 =? 0) = false) by lia. rewrite E. repeat split. exact Hm.
Qed.
Lemma n_end f st acc : SNorm f 1 st acc -> completed f (step st 41) (TStr acc).
Proof.
  intros (<- & Hm & <- & Hp). unfold step. rewrite (step_string_end st 41 Hm eq_refl). unfold string_special.
  rewrite Hp. split; reflexivity.
Qed.

Lemma step_escape_fresh st c : lmode st = MString1 -> oct st = [] -> re_OCT_STRING c = false -> escape_consumes c = true ->
  step_core st c = string1_escape st c.
Proof. intros Hm Ho Hc He. apply step_string1_escape; rewrite ?Ho, ?Hc; auto. Qed.

Lemma e_table f n st acc c v : SEsc f n st acc -> lookup c ESC_STRING = Some v -> SNorm f n (step st c) (acc ++ [v]).
Proof.
  intros (<- & Hm & <- & <- & Ho) Hl. unfold step.
  rewrite (step_escape_fresh st c Hm Ho (esc_not_octal c v Hl)) by (unfold escape_consumes; rewrite Hl; reflexivity).
  unfold string1_escape. rewrite Hl. repeat split.
Qed.
Lemma e_octal f n st acc c : SEsc f n st acc -> re_OCT_STRING c = true -> SOct f n (step st c) acc [c].
Proof.
  intros (<- & Hm & <- & <- & Ho) Hoct. unfold step.
  rewrite step_string1_digit by (assumption || (rewrite Ho, Hoct; reflexivity)). rewrite Ho.
  repeat split; auto. discriminate.
Qed.
Lemma e_lf f n st acc : SEsc f n st acc -> SNorm f n (step st 10) acc.
Proof. intros (<- & Hm & <- & <- & Ho). unfold step. rewrite (step_escape_fresh st 10 Hm Ho eq_refl eq_refl). repeat split. Qed.
Lemma e_cr f n st acc : SEsc f n st acc -> SCR f n (step st 13) acc.
Proof. intros (<- & Hm & <- & <- & Ho). unfold step. rewrite (step_escape_fresh st 13 Hm Ho eq_refl eq_refl). repeat split. Qed.
Lemma e_other f n st acc c : SEsc f n st acc -> plain c -> re_OCT_STRING c = false -> lookup c ESC_STRING = None ->
  c <> 13 -> c <> 10 -> SNorm f n (step st c) (acc ++ [c]).
Proof.
  intros (Hf & Hm & Hc & Hp & Ho) Hpl Hoct Hl H13 H10.
  assert (He : escape_consumes c = false) by (unfold escape_consumes; rewrite Hl; lia).
  rewrite (step_again st (set_mode MString st) c) by (apply step_string1_ignore; rewrite ?Ho, ?Hoct; auto).
  apply n_plain; [repeat split; assumption|exact Hpl].
Qed.

Lemma o_more f n st acc ds c : SOct f n st acc ds -> (length ds < 3)%nat -> re_OCT_STRING c = true -> SOct f n (step st c) acc (ds ++ [c]).
Proof.
  intros (<- & Hm & <- & <- & <- & Hne) Hlt Hoct. unfold step.
  rewrite step_string1_digit by (assumption || (rewrite Hoct; unfold len; lia)).
  repeat split; auto. destruct (oct st); discriminate.
Qed.
Lemma oct_run f n acc : forall ds st pre, SOct f n st acc pre -> (length pre + length ds <= 3)%nat ->
  forallb re_OCT_STRING ds = true -> SOct f n (run st ds) acc (pre ++ ds).
Proof.
  induction ds as [|d ds IH]; intros st pre H Hl Hf; [rewrite app_nil_r; exact H|].
  cbn [forallb] in Hf. apply andb_true_iff in Hf. destruct Hf as [Hd Hf]. cbn [length] in Hl.
  rewrite run_cons. replace (pre ++ d :: ds) with ((pre ++ [d]) ++ ds) by (rewrite <- app_assoc; reflexivity).
  apply IH; [apply o_more; [exact H|lia|exact Hd]|rewrite app_length; cbn [length]; lia|exact Hf].
Qed.

Lemma c_lf f n st acc : SCR f n st acc -> SNorm f n (step st 10) acc.
Proof. intros (<- & Hm & <- & <-). unfold step. rewrite (step_stringcr_lf st Hm). repeat split. Qed.

(* the ways ISO 32000-1 7.3.4.2 lets one byte (or nothing) be written inside ( ); a raw CR or CR LF is left out:
   pdfminer deviates from the standard there (known finding) *)
Inductive piece :=
| PRaw (c : Z)                     (* the byte itself: not ( ) \ and not CR *)
| PEsc (c v : Z)                   (* \n \r \t \b \f \( \) \\ *)
| POct (ds : list Z)               (* \d, \dd, \ddd *)
| PCont (eol : list Z)             (* backslash + end of line: denotes nothing *)
| PIgn (c : Z)                     (* backslash before a byte that starts no escape: the byte itself *)
| POpen | PClose.                  (* unescaped parentheses, allowed when balanced: they denote themselves *)

Definition render (p : piece) : list Z :=
  match p with
  | PRaw c => [c] | PEsc c _ => [92; c] | POct ds => 92 :: ds | PCont eol => 92 :: eol | PIgn c => [92; c]
  | POpen => [40] | PClose => [41]
  end.
Definition pvalue (p : piece) : list Z :=
  match p with
  | PRaw c => [c] | PEsc _ v => [v] | POct ds => [octv ds] | PCont _ => [] | PIgn c => [c]
  | POpen => [40] | PClose => [41]
  end.
Definition wf_piece (p : piece) : Prop :=
  match p with
  | PRaw c => plain c /\ c <> 13
  | PEsc c v => lookup c ESC_STRING = Some v
  | POct ds => ds <> [] /\ (length ds <= 3)%nat /\ forallb re_OCT_STRING ds = true
  | PCont eol => eol = [10] \/ eol = [13] \/ eol = [13; 10]
  | PIgn c => plain c /\ re_OCT_STRING c = false /\ lookup c ESC_STRING = None /\ c <> 13 /\ c <> 10
  | POpen | PClose => True
  end.

(* what is still pending when a piece has been read *)
Inductive pend := ANone | AOct (ds : list Z) | ACR.
(* the reader's state when v has been spelled so far: the value of a pending octal escape is not yet appended *)
Definition Pending (f : frame) (n : Z) (st : lst) (a : pend) (v : list Z) : Prop :=
  match a with
  | ANone => SNorm f n st v
  | AOct ds => exists acc, SOct f n st acc ds /\ v = acc ++ [octv ds]
  | ACR => SCR f n st v
  end.

Definition first_byte (p : piece) : Z := match p with PRaw c => c | POpen => 40 | PClose => 41 | _ => 92 end.
(* nesting depth after a piece *)
Definition dstep (n : Z) (p : piece) : Z := match p with POpen => n + 1 | PClose => n - 1 | _ => n end.
(* the two ambiguities a writer must avoid: a short octal escape followed by a raw digit, backslash-CR followed by a
   raw LF *)
Definition compatible (a : pend) (p : piece) : Prop :=
  match a with
  | AOct ds => (3 <= length ds)%nat \/ re_OCT_STRING (first_byte p) = false
  | ACR => first_byte p <> 10
  | ANone => True
  end.

(* A byte that cannot continue what is pending settles it: the byte is read from the normal state, with the value of
   the octal escape appended.  The condition is [compatible a p] for the first byte of p. *)
Lemma settle f n st a v c : Pending f n st a v ->
  match a with AOct ds => (3 <= length ds)%nat \/ re_OCT_STRING c = false | ACR => c <> 10 | ANone => True end ->
  exists st0, SNorm f n st0 v /\ step st c = step st0 c.
Proof.
  destruct a as [|ds|]; cbn [Pending]; intros H Hc.
  - exists st. auto.
  - destruct H as (acc & (<- & Hm & <- & <- & <- & Hne) & ->). exists (end_oct st). split; [repeat split|].
    apply step_again, step_string1_octend; [exact Hm| |destruct (oct st); [congruence|reflexivity]].
    destruct Hc as [Hc|Hc]; [unfold len; lia|rewrite Hc; reflexivity].
  - destruct H as (<- & Hm & <- & <-). exists (set_mode MString st). split; [repeat split|].
    apply step_again, step_stringcr_other; [exact Hm|lia].
Qed.

(* what a piece leaves pending *)
Definition pafter (p : piece) : pend := match p with POct ds => AOct ds | PCont [13] => ACR | _ => ANone end.
(* admissible piece sequences from pending state a at depth n: every piece well formed and compatible with what is
   pending, a closing parenthesis only inside an open one, and all parentheses closed at the end *)
Fixpoint seq_okd (a : pend) (n : Z) (ps : list piece) : Prop :=
  match ps with
  | [] => n = 1
  | p :: r => wf_piece p /\ compatible a p /\ (p = PClose -> 2 <= n) /\ seq_okd (pafter p) (dstep n p) r
  end.
Definition seq_ok (a : pend) (ps : list piece) : Prop := seq_okd a 1 ps.

Lemma piece_norm f n st v p : SNorm f n st v -> wf_piece p -> (p = PClose -> 2 <= n) ->
  Pending f (dstep n p) (run st (render p)) (pafter p) (v ++ pvalue p).
Proof.
  intros HS Hwf Hcl. pose proof (n_backslash f n st v HS) as HE.
  destruct p as [c|c v'|ds|eol|c| |]; cbn [render pvalue wf_piece dstep pafter Pending run fold_left] in *.
  - apply n_plain; tauto.
  - apply (e_table f n _ v c v' HE Hwf).
  - destruct Hwf as (Hne & Hl & Hf). destruct ds as [|d ds]; [congruence|].
    cbn [forallb] in Hf. apply andb_true_iff in Hf. destruct Hf as [Hd Hf]. cbn [length] in Hl.
    exists v. split; [|reflexivity].
    apply (oct_run f n v ds _ [d]); [apply e_octal; assumption|cbn [length]; lia|exact Hf].
  - rewrite app_nil_r. destruct Hwf as [ -> | [ -> | -> ] ]; cbn [fold_left].
    + apply e_lf, HE.
    + apply e_cr, HE.
    + apply c_lf, e_cr, HE.
  - destruct Hwf as (Hpl & Ho & Hl & H13 & H10). apply e_other; assumption.
  - apply n_open, HS.
  - apply n_close; auto.
Qed.

Lemma piece_run f n st a v p : Pending f n st a v -> wf_piece p -> compatible a p -> (p = PClose -> 2 <= n) ->
  Pending f (dstep n p) (run st (render p)) (pafter p) (v ++ pvalue p).
Proof.
  intros HI Hwf Hco Hcl. destruct (settle f n st a v (first_byte p) HI Hco) as (st0 & HS & E).
  assert (Hr : render p = first_byte p :: tl (render p)) by (destruct p; reflexivity).
  rewrite Hr, run_cons, E, <- run_cons, <- Hr. apply piece_norm; assumption.
Qed.

Lemma pieces_run f : forall ps n st a v, Pending f n st a v -> seq_okd a n ps ->
  exists a', Pending f 1 (run st (flat_map render ps)) a' (v ++ flat_map pvalue ps).
Proof.
  induction ps as [|p ps IH]; intros n st a v HI Hok; cbn [seq_okd] in Hok.
  - subst n. exists a. rewrite app_nil_r. exact HI.
  - destruct Hok as (Hwf & Hco & Hcl & Hrest). cbn [flat_map]. rewrite run_app, app_assoc.
    exact (IH _ _ _ _ (piece_run f n st a v p HI Hwf Hco Hcl) Hrest).
Qed.

(* Any sequence of admissible spellings of the bytes of a string (balanced unescaped parentheses included),
   written between parentheses, is read back as exactly the string: nothing is emitted before the closing parenthesis,
   and the token emitted there carries the concatenated values at the position of the opening parenthesis *)
Theorem literal_string_spelling f st ps : SNorm f 1 st [] -> seq_ok ANone ps ->
  completed f (run st (flat_map render ps ++ [41])) (TStr (flat_map pvalue ps)).
Proof.
  intros HS Hok. destruct (pieces_run f ps 1 st ANone [] HS Hok) as (a' & HI).
  rewrite run_app. cbn [run fold_left app] in *.
  destruct (settle f 1 _ a' _ 41 HI) as (st0 & HS0 & ->); [destruct a'; [exact I|right; reflexivity|discriminate]|].
  apply n_end, HS0.
Qed.

Theorem literal_string_token st ps : lmode st = MMain -> seq_ok ANone ps ->
  let fin := run st (40 :: flat_map render ps ++ [41]) in
  lmode fin = MMain /\ toks fin = (apos st, TStr (flat_map pvalue ps)) :: toks st.
Proof.
  intros Hm Hok. cbv zeta. rewrite run_cons. apply (literal_string_spelling (apos st, toks st)); [|exact Hok].
  unfold step. rewrite (step_main_start st 40 Hm eq_refl). repeat split.
Qed.

(* every byte string has an admissible spelling (three-digit octal escapes), so the theorem is about all strings *)
Definition oct3 (b : Z) : list Z := [48 + b / 64; 48 + (b / 8) mod 8; 48 + b mod 8].
Lemma oct3_ok b : 0 <= b < 256 -> octv (oct3 b) = b /\ forallb re_OCT_STRING (oct3 b) = true.
Proof.
  intros Hb. unfold octv, oct3, octnum, re_OCT_STRING. cbn [fold_left forallb]. split; [|Z.div_mod_to_equations; lia].
  change 255 with (Z.ones 8). rewrite Z.land_ones by lia. rewrite Z.mod_small; Z.div_mod_to_equations; lia.
Qed.
Lemma seq_ok_oct3 : forall v a, Forall (fun b => 0 <= b < 256) v ->
  (match a with AOct ds => (3 <= length ds)%nat | ACR => True | ANone => True end) ->
  seq_ok a (map (fun b => POct (oct3 b)) v) /\ flat_map pvalue (map (fun b => POct (oct3 b)) v) = v.
Proof.
  unfold seq_ok.
  induction v as [|b v IH]; intros a Hv Ha; [split; reflexivity|].
  inversion Hv as [|? ? Hb Hv']; subst. destruct (oct3_ok b Hb) as [Ho Hf].
  destruct (IH (AOct (oct3 b)) Hv') as [Hs Hval]; [cbn; lia|].
  cbn [map seq_okd flat_map pvalue pafter dstep]. split.
  - split; [cbn [wf_piece]; split; [discriminate|split; [cbn; lia|exact Hf]]|].
    split; [destruct a; cbn [compatible first_byte]; [exact I|left; exact Ha|discriminate]|].
    split; [discriminate|exact Hs].
  - rewrite Hval, Ho. reflexivity.
Qed.
Theorem every_string_has_a_spelling v : Forall (fun b => 0 <= b < 256) v ->
  exists ps, seq_ok ANone ps /\ flat_map pvalue ps = v.
Proof. intros Hv. exists (map (fun b => POct (oct3 b)) v). apply seq_ok_oct3; [exact Hv|exact I]. Qed.

(* non-vacuity: one spelling using every kind of piece, with the near-misses the side condition still admits (a two-digit
   octal escape before the digit 9, a full three-digit one before a digit, backslash-CR before a byte other than LF) *)
Example spelling_example :
  let ps := [PRaw 65; PEsc 110 10; POct [48; 49]; PRaw 57; POct [49; 50; 51]; PRaw 52; PCont [13]; PRaw 66; PCont [13; 10];
             PIgn 113; PEsc 40 40; POct [55]; PCont [10]; POpen; PRaw 66; POpen; PClose; POct [55]; PClose] in
  seq_ok ANone ps /\ flat_map pvalue ps = [65; 10; 1; 57; 83; 52; 66; 113; 40; 7; 40; 66; 40; 41; 7; 41].
Proof. unfold seq_ok. cbn. repeat split; auto; try lia; try discriminate. Qed.
