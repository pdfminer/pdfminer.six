(* C01: the byte-level side conditions under which a value has a byte spelling, and the spelling itself: every token of
   the value's printout in one of its spellings, each followed by a space. *)
From Coq Require Import ZArith List.
From PdfV Require Import Base.ListX Gen.LexClasses Model.Lexer Model.StackParser Proofs.StackProofs
  Proofs.SpellingProofs Proofs.SpellingProofs2 Proofs.SpellingSeq.
Import ListNotations.
Open Scope Z_scope.

Definition bytes_ok (l : list Z) : Prop := Forall (fun b => 0 <= b < 256) l.
Definition real_form (sp : list Z) : Prop :=
  exists sg d1 d2, sp = sign_bytes sg ++ d1 ++ 46 :: d2 /\ forallb isdigit d1 = true /\ forallb isdigit d2 = true /\ d1 ++ d2 <> [].

(* the byte-level side conditions on a value: names and strings are byte strings, reals are spelled as reals *)
Fixpoint bwf (v : value) : Prop :=
  match v with
  | VReal sp => real_form sp
  | VName n => bytes_ok n
  | VStr s => bytes_ok s
  | VArr l => (fix go (l : list value) : Prop := match l with [] => True | x :: r => bwf x /\ go r end) l
  | VDict d => (fix go (d : list (list Z * value)) : Prop :=
                  match d with [] => True | kv :: r => (bytes_ok (fst kv) /\ bwf (snd kv)) /\ go r end) d
  | _ => True
  end.
Lemma bwf_arr l : bwf (VArr l) <-> Forall bwf l.
Proof. exact (Forall_fix bwf l). Qed.
Lemma bwf_dict d : bwf (VDict d) <-> Forall (fun kv => bytes_ok (fst kv) /\ bwf (snd kv)) d.
Proof. exact (Forall_fix (fun kv => bytes_ok (fst kv) /\ bwf (snd kv)) d). Qed.

(* a token has a spelling after which a space may follow *)
Definition tok_ok (t : token) : Prop :=
  exists s, self_tok t s \/ exists P, reg_tok t s P /\ P 32.

Lemma ok_int z : tok_ok (TInt z).
Proof.
  destruct (every_integer_has_a_spelling z) as (sg & ds & Hne & Hd & Hv). exists (sign_bytes sg ++ ds). right.
  exists idelim. split; [rewrite <- Hv; constructor; assumption|split; [reflexivity|discriminate]].
Qed.
Lemma ok_name n : bytes_ok n -> tok_ok (TLit n).
Proof.
  intros H. destruct (every_name_has_a_spelling n H) as (ps & Hps & Hv). exists (47 :: flat_map nrender ps). right.
  exists ndelim. split; [rewrite <- Hv; constructor; exact Hps|split; [reflexivity|discriminate]].
Qed.
Lemma ok_str s : bytes_ok s -> tok_ok (TStr s).
Proof.
  intros H. destruct (every_string_has_a_spelling s H) as (ps & Hps & Hv). exists (40 :: flat_map render ps ++ [41]). left.
  rewrite <- Hv. constructor. exact Hps.
Qed.
Lemma ok_real sp : real_form sp -> tok_ok (TReal sp).
Proof.
  intros (sg & d1 & d2 & -> & H1 & H2 & Hne). eexists. right. eexists. split; [constructor; assumption|reflexivity].
Qed.
Lemma ok_kw (c : Z) (kw : list Z) t : isalpha c = true -> forallb (fun x => negb (re_END_KEYWORD x)) kw = true ->
  keyword_token (c :: kw) = t -> tok_ok t.
Proof.
  intros Hc Hk <-. exists (c :: kw). right. eexists. split; [constructor; assumption|reflexivity].
Qed.
Lemma ok_bool b : tok_ok (TBool b).
Proof. destruct b; [apply (ok_kw 116 [114; 117; 101])|apply (ok_kw 102 [97; 108; 115; 101])]; reflexivity. Qed.
Lemma ok_null : tok_ok (TKw K_null).
Proof. apply (ok_kw 110 [117; 108; 108]); reflexivity. Qed.
Lemma ok_R : tok_ok (TKw K_R).
Proof. apply (ok_kw 82 []); reflexivity. Qed.
Lemma ok_bracket c : c = 91 \/ c = 93 -> tok_ok (TKw [c]).
Proof. intros H. exists [c]. left. constructor. tauto. Qed.
Lemma ok_dopen : tok_ok (TKw [60; 60]).
Proof. exists [60; 60]. left. constructor. Qed.
Lemma ok_dclose : tok_ok (TKw [62; 62]).
Proof. exists [62; 62]. left. constructor. Qed.

Lemma tprint_tokens_ok : forall v, wfv v -> bwf v -> Forall tok_ok (tprint v).
Proof.
  induction v using value_ind2; intros Hw Hb; cbn [tprint].
  - constructor; [apply ok_null|constructor].
  - constructor; [apply ok_bool|constructor].
  - constructor; [apply ok_int|constructor].
  - constructor; [apply ok_real; exact Hb|constructor].
  - constructor; [apply ok_name; exact Hb|constructor].
  - constructor; [apply ok_str; exact Hb|constructor].
  - apply wfv_arr in Hw. apply bwf_arr in Hb. constructor; [apply ok_bracket; auto|].
    apply Forall_app. split; [|constructor; [apply ok_bracket; auto|constructor]].
    apply Forall_flat_map. rewrite Forall_forall in *. intros x Hx. apply H; auto.
  - apply wfv_dict in Hw. apply bwf_dict in Hb. constructor; [apply ok_dopen|].
    apply Forall_app. split; [|constructor; [apply ok_dclose|constructor]].
    apply Forall_flat_map. rewrite Forall_forall in *. intros kv Hx. destruct (Hb kv Hx) as [Hk Hbv].
    constructor; [apply ok_name, Hk|apply H; auto].
  - constructor; [apply ok_int|constructor; [apply ok_int|constructor; [apply ok_R|constructor]]].
  - contradiction.
Qed.

Lemma spelled_exists : forall ts, Forall tok_ok ts -> exists bytes, spelled ts bytes.
Proof.
  induction ts as [|t ts IH]; intros H; [exists []; constructor|].
  inversion H as [|? ? (s & Hs) Hts]; subst. destruct (IH Hts) as (rest & Hr).
  exists (s ++ 32 :: rest).
  assert (Hws : spelled ts (32 :: rest)) by (apply sp_ws; [left; reflexivity|exact Hr]).
  destruct Hs as [Hs|(P & Hs & HP)].
  - apply sp_self; assumption.
  - apply (sp_reg t s P); [exact Hs|exact HP|exact Hws].
Qed.
