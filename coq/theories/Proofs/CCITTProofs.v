(* C19, code layer: the boolean comparisons C19_tables is stated with; the tables are prefix-free, so the parser reads a
   code of its current table bit by bit, staying at inner nodes of the trie until the last bit; run lengths as sums of
   make-up and terminating codes. *)
From Coq Require Import ZArith List Bool Lia.
From PdfV Require Import Gen.CCITTTables Model.CCITT.
Import ListNotations.
Open Scope Z_scope.

Definition entry_eqb (a b : Z * list bool) : bool := (fst a =? fst b) && bits_eqb (snd a) (snd b).
Definition subset_z (a b : list (Z * list bool)) : bool := forallb (fun e => existsb (entry_eqb e) b) a.

Definition mode_eqb (a b : g4mode) : bool :=
  match a, b with
  | MV x, MV y | MX x, MX y => x =? y
  | MH, MH | MP, MP | MU, MU | ME, ME => true
  | _, _ => false
  end.
Definition mentry_eqb (a b : g4mode * list bool) : bool := mode_eqb (fst a) (fst b) && bits_eqb (snd a) (snd b).
(* pdfminer's MODE table additionally lists the uncompressed-mode and extension codes *)
Definition is_core_mode (e : g4mode * list bool) : bool := match fst e with MU | MX _ => false | _ => true end.

Lemma bits_eqb_eq a : forall b, bits_eqb a b = true <-> a = b.
Proof.
  induction a as [|x a IH]; destruct b as [|y b]; cbn; split; intros H; try discriminate; try reflexivity.
  - apply andb_true_iff in H. destruct H as [H1 H2]. apply Bool.eqb_prop in H1. apply IH in H2. subst. reflexivity.
  - inversion H; subst. rewrite Bool.eqb_reflx. cbn. apply IH. reflexivity.
Qed.

Lemma mode_eqb_eq a b : mode_eqb a b = true -> a = b.
Proof. destruct a, b; cbn; intros H; try discriminate; try reflexivity; apply Z.eqb_eq in H; congruence. Qed.

Definition prefix_free {A} (t : list (A * list bool)) : bool :=
  forallb (fun e1 => forallb (fun e2 => negb (is_prefix (snd e1) (snd e2)) || bits_eqb (snd e1) (snd e2)) t) t.
Definition codes_distinct {A} (t : list (A * list bool)) : Prop := NoDup (map snd t).

Lemma pf_mode : prefix_free MODE = true. Proof. vm_compute. reflexivity. Qed.
Lemma pf_white : prefix_free WHITE = true. Proof. vm_compute. reflexivity. Qed.
Lemma pf_black : prefix_free BLACK = true. Proof. vm_compute. reflexivity. Qed.

Lemma prefix_free_spec {A} (t : list (A * list bool)) : prefix_free t = true ->
  forall e1 e2, In e1 t -> In e2 t -> is_prefix (snd e1) (snd e2) = true -> snd e1 = snd e2.
Proof.
  intros H e1 e2 H1 H2 Hp. unfold prefix_free in H. rewrite forallb_forall in H.
  specialize (H e1 H1). rewrite forallb_forall in H. specialize (H e2 H2).
  rewrite Hp in H. apply bits_eqb_eq. exact H.
Qed.

Lemma is_prefix_app a b : is_prefix a (a ++ b) = true.
Proof. induction a as [|x a IH]; [reflexivity|]. cbn. rewrite Bool.eqb_reflx, IH. reflexivity. Qed.

Lemma is_prefix_length a : forall b, is_prefix a b = true -> (length a <= length b)%nat.
Proof.
  induction a as [|x a IH]; intros b H; [cbn; lia|]. destruct b as [|y b]; [discriminate|].
  cbn in H. apply andb_true_iff in H. destruct H as [_ H]. apply IH in H. cbn. lia.
Qed.

Definition functional {A} (t : list (A * list bool)) : Prop :=
  forall e1 e2, In e1 t -> In e2 t -> snd e1 = snd e2 -> fst e1 = fst e2.

Lemma find_code {A} (t : list (A * list bool)) p e :
  find (fun e => bits_eqb (snd e) p) t = Some e -> In e t /\ snd e = p.
Proof. intros E. apply find_some in E. destruct E as [Hin Heq]. apply bits_eqb_eq in Heq. auto. Qed.

Theorem trie_walk {A} (t : list (A * list bool)) v code : prefix_free t = true -> functional t ->
  In (v, code) t ->
  trie_at t code = WLeaf v /\
  forall p s, code = p ++ s -> s <> [] -> trie_at t p = WNode.
Proof.
  intros Hpf Hf Hin. split.
  - unfold trie_at. destruct (find _ t) as [e|] eqn:E.
    + destruct (find_code _ _ _ E) as [Hine Heq]. rewrite (Hf e (v, code) Hine Hin Heq). reflexivity.
    + apply (find_none _ _ E) in Hin. cbn in Hin. rewrite (proj2 (bits_eqb_eq code code) eq_refl) in Hin. discriminate.
  - intros p s -> Hs. unfold trie_at. destruct (find _ t) as [e|] eqn:E.
    + (* a code equal to a proper prefix of [code] contradicts prefix-freeness *)
      exfalso. destruct (find_code _ _ _ E) as [Hine Heq].
      assert (Hp : is_prefix (snd e) (snd (v, p ++ s)) = true) by (rewrite Heq; apply is_prefix_app).
      pose proof (prefix_free_spec t Hpf e (v, p ++ s) Hine Hin Hp) as Hsame. cbn in Hsame.
      rewrite Heq, <- (app_nil_r p) in Hsame at 1. apply app_inv_head in Hsame. congruence.
    + assert (Hex : existsb (fun e => is_prefix p (snd e)) t = true).
      { apply existsb_exists. exists (v, p ++ s). split; [exact Hin|]. apply is_prefix_app. }
      rewrite Hex. reflexivity.
Qed.

Lemma functional_of_distinct {A} (t : list (A * list bool)) :
  (forallb (fun e1 => forallb (fun e2 => negb (bits_eqb (snd e1) (snd e2)) || true) t) t = true) -> True.
Proof. auto. Qed.

Definition functional_b {A} (eqb : A -> A -> bool) (t : list (A * list bool)) : bool :=
  forallb (fun e1 => forallb (fun e2 => negb (bits_eqb (snd e1) (snd e2)) || eqb (fst e1) (fst e2)) t) t.
Lemma functional_b_spec {A} (eqb : A -> A -> bool) t : (forall a b, eqb a b = true -> a = b) ->
  functional_b eqb t = true -> functional t.
Proof.
  intros Heqb H e1 e2 H1 H2 Hc. unfold functional_b in H. rewrite forallb_forall in H. specialize (H e1 H1).
  rewrite forallb_forall in H. specialize (H e2 H2).
  rewrite (proj2 (bits_eqb_eq _ _) Hc) in H. apply Heqb. exact H.
Qed.
Lemma fn_white : functional WHITE.
Proof. apply (functional_b_spec Z.eqb); [apply Z.eqb_eq|vm_compute; reflexivity]. Qed.
Lemma fn_black : functional BLACK.
Proof. apply (functional_b_spec Z.eqb); [apply Z.eqb_eq|vm_compute; reflexivity]. Qed.
Lemma fn_mode : functional MODE.
Proof. apply (functional_b_spec mode_eqb); [apply mode_eqb_eq|vm_compute; reflexivity]. Qed.

Lemma mode_code_nonempty m code : In (m, code) MODE -> code <> [].
Proof.
  intros Hin ->.
  assert (H : forallb (fun e => negb (bits_eqb (snd e) [])) MODE = true) by (vm_compute; reflexivity).
  rewrite forallb_forall in H. specialize (H _ Hin). discriminate.
Qed.

Lemma feed_bits_app s a : forall b,
  feed_bits s (a ++ b) = match feed_bits s a with BCont s1 => feed_bits s1 b | r => r end.
Proof.
  revert s. induction a as [|x a IH]; intros s b; cbn [app feed_bits]; [reflexivity|].
  destruct (parse_bit s x); try reflexivity. apply IH.
Qed.

(* every bit of [bits] is read, and the last one makes the parser answer [r]: in particular no proper prefix
   of [bits] stops the parser *)
Definition reads (s : g4) (bits : list bool) (r : bres) : Prop :=
  exists pre b y, bits = pre ++ [b] /\ feed_bits s pre = BCont y /\ parse_bit y b = r.

Lemma reads_feed s bits r : reads s bits r -> feed_bits s bits = r.
Proof. intros (pre & b & y & -> & F & <-). rewrite feed_bits_app, F. cbn. destruct (parse_bit y b); reflexivity. Qed.

Lemma reads_app s a y bits r : feed_bits s a = BCont y -> reads y bits r -> reads s (a ++ bits) r.
Proof.
  intros Fa (pre & b & z & -> & F & P). exists (a ++ pre), b, z.
  rewrite feed_bits_app, Fa, app_assoc. auto.
Qed.

Lemma reads_tail s a l r : reads s (a ++ l) r -> l <> [] -> exists y, feed_bits s a = BCont y /\ reads y l r.
Proof.
  intros (pre & b & z & E & F & P) Hl. destruct (exists_last Hl) as (l' & b' & ->).
  rewrite app_assoc in E. apply app_inj_tail in E. destruct E as [<- <-].
  rewrite feed_bits_app in F. destruct (feed_bits s a) as [y| | | |]; try discriminate.
  exists y. split; [reflexivity|]. exists l', b', z. auto.
Qed.

Definition with_bits (s : g4) (p : list bool) : g4 :=
  mkG4 (gwidth s) (galign s) (refline s) (curline s) (gcurpos s) (gcolor s) (lines s) (gtab s) (gacc s) p (gn1 s) (gn2 s).

Lemma with_bits_id s : with_bits s (gbits s) = s.
Proof. destruct s; reflexivity. Qed.

(* the three acceptors of parse_bit walk a trie in the same way and differ in the table and in the reaction at a
   leaf: [Hstep] is what they share *)
Section Walk.
Context {A : Type} (t : list (A * list bool)) (leaf : g4 -> A -> bres) (s : g4).
Hypothesis Hpf : prefix_free t = true.
Hypothesis Hfn : functional t.
Hypothesis Hb : gbits s = [].
Hypothesis Hstep : forall p b, parse_bit (with_bits s p) b =
  match trie_at t (p ++ [b]) with
  | WNode => BCont (with_bits s (p ++ [b]))
  | WNone => BInvalid
  | WLeaf v => leaf (with_bits s p) v
  end.

Lemma feed_proper_at v : forall q p r, In (v, p ++ q ++ r) t -> r <> [] ->
  feed_bits (with_bits s p) q = BCont (with_bits s (p ++ q)).
Proof.
  induction q as [|b q IH]; intros p r Hin Hr; cbn [feed_bits].
  - rewrite app_nil_r. reflexivity.
  - rewrite Hstep, (proj2 (trie_walk t v _ Hpf Hfn Hin) (p ++ [b]) (q ++ r)).
    + rewrite (IH (p ++ [b]) r), <- app_assoc; [reflexivity| |exact Hr]. rewrite <- app_assoc. exact Hin.
    + rewrite <- app_assoc. reflexivity.
    + destruct q; [exact Hr|discriminate].
Qed.

Lemma feed_proper v q r : In (v, q ++ r) t -> r <> [] -> feed_bits s q = BCont (with_bits s q).
Proof. intros Hin Hr. rewrite <- (with_bits_id s) at 1. rewrite Hb. exact (feed_proper_at v q [] r Hin Hr). Qed.

(* at the leaf the bits before the last are still pending; of the reactions only the end-of-block one keeps them *)
Lemma read_code v code : In (v, code) t -> code <> [] -> reads s code (leaf (with_bits s (removelast code)) v).
Proof.
  intros Hin Hne. destruct (exists_last Hne) as (p & b & ->). rewrite removelast_last.
  exists p, b, (with_bits s p). split; [reflexivity|]. split; [apply (feed_proper v p [b] Hin); discriminate|].
  rewrite Hstep, (proj1 (trie_walk t v _ Hpf Hfn Hin)). reflexivity.
Qed.
End Walk.

Lemma after_coding_with_bits x p : after_coding (with_bits x p) = after_coding x.
Proof.
  unfold after_coding, flush_line. cbn [with_bits gwidth gcurpos galign].
  destruct (gwidth x <=? gcurpos x); [destruct (galign x)|]; reflexivity.
Qed.

(* what _parse_mode does with a decoded mode *)
Definition accept_mode (s : g4) (m : g4mode) : bres :=
  match m with
  | MP => after_coding (do_pass s)
  | MH => BCont (goto s (colour_table (gcolor s)) AH1 0 (gn2 s))
  | MV d => after_coding (do_vertical s d)
  | MU => BUnmodelled
  | ME => BEOFB s
  | MX _ => BInvalid
  end.

Lemma step_mode s : gacc s = AMode -> forall p b, parse_bit (with_bits s p) b =
  match trie_at MODE (p ++ [b]) with
  | WNode => BCont (with_bits s (p ++ [b]))
  | WNone => BInvalid
  | WLeaf m => accept_mode (with_bits s p) m
  end.
Proof.
  intros Ha p b. destruct s as [w al rf cl ps co ls tb ac bs n1 n2]. cbn in Ha. subst ac. unfold parse_bit. cbn [with_bits gacc gbits].
  destruct (trie_at MODE (p ++ [b])) as [[]| |]; reflexivity.
Qed.

Lemma accept_mode_with_bits s p m : m <> ME -> accept_mode (with_bits s p) m = accept_mode s m.
Proof.
  intros Hm. destruct m as [d| | | | |n]; try reflexivity; [|exact (after_coding_with_bits (do_pass s) p)|congruence].
  exact (after_coding_with_bits (do_vertical s d) p).
Qed.

Lemma read_mode_at s m code : gacc s = AMode -> gbits s = [] -> In (m, code) MODE ->
  reads s code (accept_mode (with_bits s (removelast code)) m).
Proof.
  intros Ha Hb Hin.
  exact (read_code MODE accept_mode s pf_mode fn_mode Hb (step_mode s Ha) m code Hin (mode_code_nonempty m code Hin)).
Qed.
Lemma read_mode s m code : gacc s = AMode -> gbits s = [] -> In (m, code) MODE -> m <> ME -> reads s code (accept_mode s m).
Proof. intros Ha Hb Hin Hm. rewrite <- (accept_mode_with_bits s (removelast code) m Hm). exact (read_mode_at s m code Ha Hb Hin). Qed.

Definition table_of (s : g4) : list (Z * list bool) := match gtab s with TBlack => BLACK | _ => WHITE end.

Lemma table_facts s : prefix_free (table_of s) = true /\ functional (table_of s).
Proof.
  unfold table_of. destruct (gtab s); [exact (conj pf_white fn_white)|exact (conj pf_white fn_white)|exact (conj pf_black fn_black)].
Qed.

(* a make-up code adds to the run length being read (the first of the pair in _parse_horiz1, the second in
   _parse_horiz2); the AMode cases here and in accept_run are fillers, both are used under gacc s <> AMode *)
Definition add_run (s : g4) (n : Z) : g4 :=
  match gacc s with
  | AMode => s
  | AH1 => goto s (colour_table (gcolor s)) AH1 (gn1 s + n) (gn2 s)
  | AH2 => goto s (colour_table (gcolor s)) AH2 (gn1 s) (gn2 s + n)
  end.
(* what _parse_horiz1 / _parse_horiz2 do with a decoded run length n: a terminating code ends the run *)
Definition accept_run (s : g4) (n : Z) : bres :=
  if n <? 64 then
    match gacc s with
    | AMode => BInvalid
    | AH1 => BCont (goto (set_color s (1 - gcolor s)) (colour_table (1 - gcolor s)) AH2 (gn1 s + n) 0)
    | AH2 => after_coding (do_horizontal (set_color s (1 - gcolor s)) (gn1 s) (gn2 s + n))
    end
  else BCont (add_run s n).

Lemma step_run s : gacc s <> AMode -> forall p b, parse_bit (with_bits s p) b =
  match trie_at (table_of s) (p ++ [b]) with
  | WNode => BCont (with_bits s (p ++ [b]))
  | WNone => BInvalid
  | WLeaf n => accept_run (with_bits s p) n
  end.
Proof.
  intros Ha p b. destruct s as [w al rf cl ps co ls tb ac bs n1 n2]. cbn in Ha.
  unfold parse_bit, accept_run, add_run, table_of. cbn [with_bits gacc gbits gtab].
  destruct ac; [congruence| |]; destruct (trie_at _ (p ++ [b])); reflexivity.
Qed.

Lemma accept_run_with_bits s p n : gacc s <> AMode -> accept_run (with_bits s p) n = accept_run s n.
Proof.
  intros Ha. unfold accept_run, add_run. cbn [with_bits gacc]. destruct (n <? 64), (gacc s); try reflexivity; try congruence.
  exact (after_coding_with_bits (do_horizontal (set_color s (1 - gcolor s)) (gn1 s) (gn2 s + n)) p).
Qed.

Lemma read_run s n code : gacc s <> AMode -> gbits s = [] -> In (n, code) (table_of s) -> code <> [] ->
  reads s code (accept_run s n).
Proof.
  intros Ha Hb Hin Hne. destruct (table_facts s) as [Hpf Hfn].
  rewrite <- (accept_run_with_bits s (removelast code) n Ha).
  exact (read_code (table_of s) accept_run s Hpf Hfn Hb (step_run s Ha) n code Hin Hne).
Qed.

Definition in_run (s : g4) : Prop := gacc s <> AMode /\ gbits s = [] /\ gtab s = colour_table (gcolor s).

Lemma add_run_0 s : in_run s -> add_run s 0 = s.
Proof.
  intros (_ & Hb & Ht). unfold add_run, goto. rewrite <- Ht, <- Hb, !Z.add_0_r. destruct s as [? ? ? ? ? ? ? ? []]; reflexivity.
Qed.
Lemma add_run_add s a b : add_run (add_run s a) b = add_run s (a + b).
Proof. unfold add_run. destruct (gacc s) eqn:E; cbn [gacc goto]; rewrite ?E, ?Z.add_assoc; reflexivity. Qed.
Lemma in_run_add s n : in_run s -> in_run (add_run s n) /\ table_of (add_run s n) = table_of s.
Proof.
  intros (Ha & _ & Ht). unfold in_run, table_of, add_run. rewrite Ht.
  destruct (gacc s); [congruence| |]; cbn [goto gacc gbits gtab gcolor]; repeat split; discriminate.
Qed.

Lemma makeups_feed : forall (mk : list (Z * list bool)) s, in_run s ->
  Forall (fun e => In e (table_of s) /\ 64 <= fst e /\ snd e <> []) mk ->
  feed_bits s (flat_map snd mk) = BCont (add_run s (fold_right (fun e a => fst e + a) 0 mk)).
Proof.
  induction mk as [|[m mcode] mk IH]; intros s Hs Hmk; cbn [flat_map fold_right fst snd].
  - rewrite (add_run_0 s Hs). reflexivity.
  - inversion Hmk as [|? ? (Hm & Hge & Hne) Hmk']; subst. cbn [fst snd] in *.
    destruct (in_run_add s m Hs) as [Hs1 Ht1]. destruct Hs as (Ha & Hb & _).
    rewrite feed_bits_app, (reads_feed _ _ _ (read_run s m mcode Ha Hb Hm Hne)). unfold accept_run.
    rewrite (proj2 (Z.ltb_ge m 64) Hge), (IH _ Hs1), add_run_add; [reflexivity|]. rewrite Ht1. exact Hmk'.
Qed.

Theorem run_reads mk s t tcode : in_run s ->
  Forall (fun e => In e (table_of s) /\ 64 <= fst e /\ snd e <> []) mk -> In (t, tcode) (table_of s) -> tcode <> [] ->
  reads s (flat_map snd mk ++ tcode) (accept_run (add_run s (fold_right (fun e a => fst e + a) 0 mk)) t).
Proof.
  intros Hs Hmk Hin Hne. apply (reads_app _ _ _ _ _ (makeups_feed mk s Hs Hmk)).
  destruct (in_run_add s (fold_right (fun e a => fst e + a) 0 mk) Hs) as [(Ha & Hb & _) Ht].
  apply read_run; [exact Ha|exact Hb|rewrite Ht; exact Hin|exact Hne].
Qed.

Theorem run_length_h1 : forall (mk : list (Z * list bool)) s t tcode,
  gacc s = AH1 -> gbits s = [] -> gtab s = colour_table (gcolor s) ->
  Forall (fun e => In e (table_of s) /\ 64 <= fst e /\ snd e <> []) mk ->
  In (t, tcode) (table_of s) -> t < 64 -> tcode <> [] ->
  feed_bits s (flat_map snd mk ++ tcode) =
  BCont (goto (set_color s (1 - gcolor s)) (colour_table (1 - gcolor s)) AH2
              (gn1 s + fold_right (fun e a => fst e + a) 0 mk + t) 0).
Proof.
  intros mk s t tcode Ha Hb Ht Hmk Hin Hlt Hne.
  assert (Hs : in_run s) by (split; [congruence|split; assumption]).
  rewrite (reads_feed _ _ _ (run_reads mk s t tcode Hs Hmk Hin Hne)).
  unfold accept_run, add_run. rewrite Ha, (proj2 (Z.ltb_lt t 64) Hlt). reflexivity.
Qed.

(* the second run completes the element; the make-up codes have only touched the pending run length, hence [add_run] *)
Theorem run_length_h2 : forall (mk : list (Z * list bool)) s t tcode,
  gacc s = AH2 -> gbits s = [] -> gtab s = colour_table (gcolor s) ->
  Forall (fun e => In e (table_of s) /\ 64 <= fst e /\ snd e <> []) mk ->
  In (t, tcode) (table_of s) -> t < 64 -> tcode <> [] ->
  let m := fold_right (fun e a => fst e + a) 0 mk in
  reads s (flat_map snd mk ++ tcode)
    (after_coding (do_horizontal (set_color (add_run s m) (1 - gcolor s)) (gn1 s) (gn2 s + m + t))).
Proof.
  intros mk s t tcode Ha Hb Ht Hmk Hin Hlt Hne m.
  assert (Hs : in_run s) by (split; [congruence|split; assumption]).
  pose proof (run_reads mk s t tcode Hs Hmk Hin Hne) as R. fold m in R.
  unfold accept_run in R. rewrite (proj2 (Z.ltb_lt t 64) Hlt) in R. unfold add_run in R |- *. rewrite Ha in R |- *.
  exact R.
Qed.
