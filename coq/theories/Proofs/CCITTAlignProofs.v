(* C19 with EncodedByteAlign: every row starts on a byte boundary; the bits between the end of a row's last element
   and the next byte boundary are skipped, whatever they are. *)
From Coq Require Import ZArith List Lia.
From PdfV Require Import Gen.CCITTTables Model.CCITT Proofs.CCITTProofs Proofs.CCITTModeProofs
  Proofs.CCITTGlueProofs Proofs.CCITTEncode.
Import ListNotations.
Open Scope Z_scope.

Definition steady (s : g4) (bits : list bool) : Prop :=
  forall p q, bits = p ++ q -> q <> [] -> exists y, feed_bits s p = BCont y.

Lemma steady_nil s : steady s [].
Proof. intros p q H Hq. destruct p; [|discriminate]. destruct q; [congruence|discriminate]. Qed.

(* the row lemmas below work with [reads], which implies steadiness (reads_steady); a segment read to its end with
   BCont adds nothing to check (steady_app) *)
Lemma steady_app s a b y : feed_bits s a = BCont y -> steady y b -> steady s (a ++ b).
Proof.
  intros Fa Sb p q H Hq. destruct (app_eq_app _ _ _ _ H) as (l & [[-> E2]|[-> E2]]).
  - rewrite feed_bits_app in Fa. destruct (feed_bits s p) as [z| | | |]; try discriminate. exists z. reflexivity.
  - rewrite feed_bits_app, Fa. exact (Sb l q E2 Hq).
Qed.
Lemma steady_tail s a b y : steady s (a ++ b) -> feed_bits s a = BCont y -> steady y b.
Proof.
  intros S Fa p q H Hq. destruct (S (a ++ p) q) as (z & Ez); [rewrite H, app_assoc; reflexivity|exact Hq|].
  rewrite feed_bits_app, Fa in Ez. exists z. exact Ez.
Qed.
Lemma reads_steady s bits r : reads s bits r -> steady s bits.
Proof.
  intros (pre & b & y & -> & F & _). apply (steady_app s pre [b] y F).
  intros p q H Hq. destruct p as [|b' [|? ?]]; [exists y; reflexivity| |]; destruct q; try discriminate; congruence.
Qed.

Section RowAl.
Variables ref row : list Z.
Hypothesis Hlen : length ref = length row.
Hypothesis HW : 0 < wid row.
Hypothesis Hbin : bin row.

(* the bits of a row's elements are read to the last one, where the decoder asks to skip to the byte boundary *)
Theorem row_reads : forall ops s bits x, rowinv ref row s -> coding ref row (gcurpos s) (gcolor s) ops -> ops <> [] ->
  ops_bits s ops bits -> ready x -> core x = core s ->
  exists x', reads x bits (outcome (galign s) x') /\ ready x' /\ core x' = core (fold_left apply_flush ops s).
Proof.
  induction ops as [|o ops IH]; intros s bits x I C Hne B Rx Cx; [congruence|].
  inversion B as [|s0 o0 ops0 b bs He Hrest]; subst.
  destruct (coding_step ref row Hlen HW Hbin s o ops I C) as (_ & I1 & C1).
  destruct (elem_reads x s o b Rx Cx He) as (x1 & E1 & R1 & K1). pose proof (ri_w _ _ _ I1) as Pw.
  cbn [fold_left]. destruct ops as [|o' ops'].
  - inversion Hrest; subst. rewrite app_nil_r. apply (coding_nil ref row) in C1.
    assert (Ef : flushes (apply_op s o) = true) by (unfold flushes; lia). rewrite Ef in E1. exists x1. auto.
  - destruct (coding_step ref row Hlen HW Hbin _ o' ops' I1 C1) as (Hm & _).
    assert (Ef : flushes (apply_op s o) = false) by (unfold flushes; lia). rewrite Ef in E1.
    assert (Eaf : apply_flush s o = apply_op s o) by (unfold apply_flush; rewrite (flush_mid ref row _ I1 Hm); reflexivity).
    rewrite Eaf in *.
    destruct (IH (apply_op s o) bs x1 I1 C1 ltac:(discriminate) Hrest R1 K1) as (x2 & E2 & R2 & K2).
    rewrite (proj2 (proj2 (proj2 (apply_op_frame s o)))) in E2.
    exists x2. split; [exact (reads_app _ _ _ _ _ (reads_feed _ _ _ E1) E2)|auto].
Qed.
End RowAl.

Lemma length_bits_of_byte byte : length (bits_of_byte byte) = 8%nat.
Proof. reflexivity. Qed.

Lemma length_flat_bits d : length (flat_map bits_of_byte d) = (8 * length d)%nat.
Proof. induction d as [|b d IH]; [reflexivity|]. cbn [flat_map length]. rewrite app_length, length_bits_of_byte, IH. lia. Qed.

Lemma feedbytes_row : forall rb x bits pad x' rest, reads x bits (BSkip x') ->
  flat_map bits_of_byte rb = bits ++ pad -> (length pad <= 7)%nat ->
  feedbytes x (rb ++ rest) = feedbytes x' rest.
Proof.
  induction rb as [|byte r IH]; intros x bits pad x' rest R Hd Hp.
  - destruct R as (pre & b & _ & -> & _). destruct pre; discriminate.
  - cbn [flat_map] in Hd. cbn [app feedbytes]. destruct r as [|b2 r2].
    + (* the row ends inside the last byte *)
      cbn [flat_map] in Hd. rewrite app_nil_r in Hd. rewrite Hd, feed_bits_app, (reads_feed _ _ _ R). reflexivity.
    + (* eight more bits follow, so the row's bits go on after this byte *)
      assert (L8 : forall l, (7 < length (l ++ flat_map bits_of_byte (b2 :: r2)))%nat)
        by (intros l; rewrite app_length, length_flat_bits; cbn [length]; lia).
      destruct (app_eq_app _ _ _ _ Hd) as (l & [[E1 E2]|[E1 E2]]); [specialize (L8 l); rewrite <- E2 in L8; lia|].
      assert (Hl : l <> []) by (intros ->; specialize (L8 []); rewrite E2 in L8; cbn [app] in L8; lia).
      rewrite E1 in R. destruct (reads_tail _ _ _ _ R Hl) as (y & Fy & Ry). rewrite Fy.
      exact (IH y l pad x' rest Ry E2 Hp).
Qed.

(* the encoded rows of a byte-aligned page: for each row its element bits, arbitrary padding, packed into bytes *)
Inductive page_bytes : g4 -> list Z -> list (list Z) -> list Z -> Prop :=
| pb_nil : forall s ref, page_bytes s ref [] []
| pb_row : forall s ref row rows ops bits pad rb data, length ref = length row -> bin row ->
    coding ref row (-1) 1 ops -> ops_bits s ops bits ->
    flat_map bits_of_byte rb = bits ++ pad -> (length pad <= 7)%nat ->
    page_bytes (fold_left apply_flush ops s) row rows data ->
    page_bytes s ref (row :: rows) (rb ++ data).

Theorem page_feeds_al : forall s ref rows data, page_bytes s ref rows data -> 0 < wid ref -> row_start_state s ref ->
  galign s = true -> forall x, ready x -> core x = core s ->
  exists x', feedbytes x data = GOk x' /\ lines x' = rev rows ++ lines s.
Proof.
  intros s ref rows data P. induction P as [s ref|s ref row rows ops bits pad rb data Hl Hb C B Hd Hp P IH];
    intros HW St Hal x Rx Cx.
  - exists x. split; [reflexivity|apply (core_fields _ _ Cx)].
  - destruct (row_from_start ref row ops s Hl HW Hb St C) as (I & Hpos & C' & T1 & T2 & T3).
    rewrite (wid_length _ _ Hl) in HW.
    destruct (row_reads ref row Hl HW Hb ops s bits x I C') as (x1 & E1 & R1 & K1); try assumption.
    { intros ->. apply (coding_nil ref row) in C'. lia. }
    rewrite Hal in E1. rewrite (feedbytes_row rb x bits pad x1 data E1 Hd Hp).
    destruct (IH HW T1 ltac:(rewrite T3; exact Hal) x1 R1 K1) as (x2 & E2 & L2).
    exists x2. split; [exact E2|]. rewrite L2, T2. cbn [rev]. rewrite <- app_assoc. reflexivity.
Qed.

Theorem g4_bytes_decode_aligned w rows data reversed : 0 < w ->
  page_bytes (g4_init w true) (white_line w) rows data ->
  ccittfaxdecode data w true reversed = DOk (flat_map (output_line reversed) rows).
Proof.
  intros Hw P.
  destruct (page_feeds_al _ _ rows data P) with (x := g4_init w true) as (x' & E & L);
    [rewrite wid_white_line; lia|apply row_start_init; lia|reflexivity|split; reflexivity|reflexivity|].
  rewrite (decode_lines _ _ _ _ _ E), L. cbn [g4_init lines]. rewrite app_nil_r, rev_involutive. reflexivity.
Qed.

Lemma page_bytes_exists : forall rows ref s, Forall (fun r => length r = length ref /\ bin r) rows -> 0 < wid ref ->
  exists data, page_bytes s ref rows data.
Proof.
  induction rows as [|row rows IH]; intros ref s H HW; [exists []; constructor|].
  inversion H as [|? ? [Hl Hb] Hrest]; subst. rewrite <- (wid_length _ _ Hl) in HW. rewrite <- Hl in Hrest.
  destruct (every_row_has_a_coding ref row Hb HW) as (ops & C).
  set (bits := enc_ops s ops).
  destruct (pack_spec (length bits) bits (le_n _)) as (k & Hk & E).
  destruct (IH row (fold_left apply_flush ops s) Hrest HW) as (data & P).
  exists (pack (length bits) bits ++ data).
  apply (pb_row s ref row rows ops bits (repeat false k) _ data); try assumption.
  - symmetry. exact Hl.
  - apply enc_ops_ok. apply (coding_ops_ok _ _ _ _ _ C).
  - rewrite repeat_length. exact Hk.
Qed.

