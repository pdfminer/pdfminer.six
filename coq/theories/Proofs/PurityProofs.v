(* C12: the three ways one extraction could reach another -- shared encoding tables, caches, interleaved iterators. *)
From Coq Require Import ZArith List Lia.
From PdfV Require Import Model.Purity.
Import ListNotations.
Open Scope Z_scope.

(* with the copy, creating fonts only ever appends to the heap *)
Lemma get_encoding_appends h sel diff : exists ext, fst (get_encoding true h sel diff) = h ++ ext.
Proof. destruct diff; [exists []; symmetry; apply app_nil_r|eexists; reflexivity]. Qed.

Lemma run_fonts_appends : forall specs h, exists ext, fst (run_fonts true h specs) = h ++ ext.
Proof.
  induction specs as [|[sel diff] r IH]; intros h; [exists []; symmetry; apply app_nil_r|].
  cbn [run_fonts]. destruct (get_encoding_appends h sel diff) as [e1 E1].
  destruct (get_encoding true h sel diff) as [h1 a]. cbn [fst] in E1. subst h1.
  destruct (IH (h ++ e1)) as [e2 E2]. destruct (run_fonts true (h ++ e1) r) as [h2 rest]. cbn [fst] in *.
  exists (e1 ++ e2). rewrite E2. symmetry. apply app_assoc.
Qed.

Theorem shared_tables_unchanged : forall specs h n, (n <= length h)%nat ->
  firstn n (fst (run_fonts true h specs)) = firstn n h.
Proof.
  intros specs h n Hn. destruct (run_fonts_appends specs h) as [ext ->].
  rewrite firstn_app. replace (n - length h)%nat with 0%nat by lia. apply app_nil_r.
Qed.

(* a font without Differences reads the shared table: its lookups are those of the table *)
Theorem plain_font_reads_shared h sel code : font_lookup (fst (get_encoding true h sel [])) (snd (get_encoding true h sel [])) code = dget (nth sel h []) code.
Proof. reflexivity. Qed.

Section CacheProofs.
  Variables (K V : Type) (keqb : K -> K -> bool) (compute : K -> V).
  Hypothesis keqb_eq : forall a b, keqb a b = true -> a = b.

  Definition sound (c : cache K V) : Prop := forall k v, cfind K V keqb c k = Some v -> v = compute k.

  Lemma cget_sound caching c k : sound c -> sound (fst (cget K V keqb compute caching c k)) /\ snd (cget K V keqb compute caching c k) = compute k.
  Proof.
    intros Hs. unfold cget. destruct (cfind K V keqb c k) as [v|] eqn:E; cbn [fst snd].
    - split; [exact Hs|apply Hs; exact E].
    - split; [|reflexivity]. destruct caching; [|exact Hs].
      intros k' v' H. cbn [cfind] in H. destruct (keqb k' k) eqn:Ek.
      + injection H as <-. apply keqb_eq in Ek. subst. reflexivity.
      + apply Hs. exact H.
  Qed.

  Theorem cache_transparent caching : forall ks c, sound c -> cruns K V keqb compute caching c ks = map compute ks.
  Proof.
    induction ks as [|k r IH]; intros c Hs; [reflexivity|]. cbn [cruns map].
    destruct (cget_sound caching c k Hs) as [A B].
    destruct (cget K V keqb compute caching c k) as [c' v]. cbn [fst snd] in A, B. rewrite B, (IH c' A). reflexivity.
  Qed.
End CacheProofs.

Section InterleaveProofs.
  Variables (S1 S2 O1 O2 : Type) (step1 : S1 -> S1 * O1) (step2 : S2 -> S2 * O2).
  Definition count (b : bool) (l : list bool) : nat := length (filter (Bool.eqb b) l).

  Theorem interleaving_irrelevant : forall sched s1 s2,
    irun S1 S2 O1 O2 step1 step2 sched s1 s2 = (run1 S1 O1 step1 (count true sched) s1, run2 S2 O2 step2 (count false sched) s2).
  Proof.
    induction sched as [|b r IH]; intros s1 s2; [reflexivity|].
    destruct b; cbn [irun count filter Bool.eqb length].
    - destruct (step1 s1) as [s1' o] eqn:E. rewrite IH. cbn [run1]. rewrite E. reflexivity.
    - destruct (step2 s2) as [s2' o] eqn:E. rewrite IH. cbn [run2]. rewrite E. reflexivity.
  Qed.
End InterleaveProofs.
