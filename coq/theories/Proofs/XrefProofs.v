(* C02 proofs: line readers are independent of buffer boundaries; cross-reference stream
   fields; first answering section. *)
From Coq Require Import ZArith List Bool Lia.
From PdfV Require Import Base.ListX Model.Xref.
Import ListNotations.
Open Scope Z_scope.

Definition noeol (a : list Z) : Prop := forallb (fun c => negb (is_eol c)) a = true.

(* the specification with the "CR just seen" flag *)
Definition spec_go (eol : bool) (d : list Z) : option (list Z * list Z) :=
  if eol then match d with [] => None | c :: t => if c =? 10 then Some ([c], t) else Some ([], d) end
  else spec_nextline d.

Definition line_prepend (a : list Z) (sp : option (list Z * list Z)) : option (list Z * list Z) :=
  match sp with Some (l, t) => Some (a ++ l, t) | None => None end.

Lemma span_noeol_spec s : forall a b, span_noeol s = (a, b) ->
  s = a ++ b /\ noeol a /\ match b with [] => True | e :: _ => is_eol e = true end.
Proof.
  unfold noeol. induction s as [|c r IH]; intros a b H; cbn in H.
  - inversion H; subst. auto.
  - destruct (is_eol c) eqn:E.
    + inversion H; subst. cbn. auto.
    + destruct (span_noeol r) as [a' b'] eqn:Hs. inversion H; subst.
      destruct (IH a' b eq_refl) as (E1 & E2 & E3). subst r. cbn. rewrite E, E2. auto.
Qed.

Lemma spec_nextline_prefix a : noeol a -> forall d, spec_nextline (a ++ d) = line_prepend a (spec_nextline d).
Proof.
  unfold noeol. induction a as [|c r IH]; intros Ha d; cbn [app].
  - destruct (spec_nextline d) as [[l t]|]; reflexivity.
  - cbn [forallb] in Ha. apply andb_true_iff in Ha. destruct Ha as [Hc Hr].
    unfold is_eol in Hc. rewrite negb_orb in Hc. apply andb_true_iff in Hc. destruct Hc as [H10 H13]. apply negb_true_iff in H10, H13.
    cbn [spec_nextline]. rewrite H10, H13, (IH Hr d). destruct (spec_nextline d) as [[l t]|]; reflexivity.
Qed.

(* after CR the specification looks one byte ahead; [spec_nextline] does so by a pattern on the literal 10 *)
Lemma cr_lookahead d : spec_nextline (13 :: d) = line_prepend [13] (spec_go true d).
Proof.
  cbn [spec_nextline Z.eqb Pos.eqb spec_go]. destruct d as [|x xs]; [reflexivity|].
  destruct (Z.eqb_spec x 10) as [->|H]; [reflexivity|].
  destruct x as [|p|p]; try reflexivity. repeat (destruct p as [p|p|]; try reflexivity). contradiction H. reflexivity.
Qed.

(* the reader's answer [r] is the specified line after the bytes [lb] already collected *)
Definition line_agrees (lb : list Z) (sp : option (list Z * list Z)) (r : option (list Z * list Z * list (list Z))) : Prop :=
  match sp with
  | None => r = None
  | Some (l, t) => exists cur' rest', r = Some (lb ++ l, cur', rest') /\ cur' ++ concat rest' = t
  end.

Lemma line_agrees_prepend lb a sp r : line_agrees (lb ++ a) sp r -> line_agrees lb (line_prepend a sp) r.
Proof.
  destruct sp as [[l t]|]; [|exact id]. intros (c & r' & H1 & H2). exists c, r'. rewrite app_assoc. split; assumption.
Qed.

(* steps the loop may still need: two per buffer to come, one for the current buffer, one or two to finish the line;
   [nextline] runs it with 2 * length rest + 4 *)
Definition nextline_measure (eol : bool) (cur : list Z) (rest : list (list Z)) : nat :=
  2 * length rest + match cur with [] => 0 | _ => 1 end + (if eol then 1 else 2).

Lemma nextline_go_spec : forall fuel lb eol cur rest, (nextline_measure eol cur rest <= fuel)%nat ->
  line_agrees lb (spec_go eol (cur ++ concat rest)) (nextline_go fuel lb eol cur rest).
Proof.
  induction fuel as [|f IH]; intros lb eol cur rest Hm; [unfold nextline_measure in Hm; destruct cur, eol; lia|].
  cbn [nextline_go]. destruct cur as [|c cur'].
  - (* buffer exhausted: fillbuf *)
    destruct rest as [|b rest']; [destruct eol; reflexivity|].
    apply (IH lb eol b rest'). unfold nextline_measure in *. cbn [length] in *. destruct b, eol; lia.
  - destruct eol.
    + (* CR seen: an immediately following LF belongs to the line *)
      cbn [spec_go app]. destruct (c =? 10).
      * exists cur', rest. split; reflexivity.
      * exists (c :: cur'), rest. rewrite app_nil_r. split; reflexivity.
    + destruct (span_noeol (c :: cur')) as [a b] eqn:Hs.
      destruct (span_noeol_spec _ _ _ Hs) as (E & Ha & Hb). rewrite E, <- app_assoc.
      unfold spec_go. rewrite (spec_nextline_prefix a Ha). apply line_agrees_prepend. destruct b as [|e b'].
      * apply (IH (lb ++ a) false [] rest). unfold nextline_measure in *. cbn [length] in *. lia.
      * rewrite app_assoc. assert (e = 10 \/ e = 13) as [-> | ->] by (unfold is_eol in Hb; lia); cbn [app Z.eqb Pos.eqb].
        -- exists b', rest. split; reflexivity.
        -- rewrite cr_lookahead. apply line_agrees_prepend, (IH _ true b' rest).
           unfold nextline_measure in *. cbn [length] in *. destruct b'; lia.
Qed.

Lemma rev_spec_noeol t : noeol t -> forall R acc, rev_spec (t ++ R) acc = rev_spec R (rev t ++ acc).
Proof.
  unfold noeol. induction t as [|c t IH]; intros Ht R acc; [reflexivity|].
  cbn [forallb] in Ht. apply andb_true_iff in Ht. destruct Ht as [Hc Ht]. apply negb_true_iff in Hc.
  cbn [app rev_spec rev]. rewrite Hc, (IH Ht), <- app_assoc. reflexivity.
Qed.

(* one buffer, given by its reversal [r]: its lines, then the specification continues on what lies before it *)
Lemma rev_chunk_spec : forall fuel r buf R, (length r < fuel)%nat ->
  let (ls, b') := rev_chunk fuel (rev r) buf in
  rev_spec (r ++ R) buf = ls ++ rev_spec R b'.
Proof.
  induction fuel as [|f IH]; intros r buf R Hf; [lia|].
  cbn [rev_chunk]. rewrite rev_involutive. destruct (span_noeol r) as [tr rest] eqn:Hs.
  destruct (span_noeol_spec _ _ _ Hs) as (-> & Htr & Hrest).
  rewrite <- app_assoc, (rev_spec_noeol tr Htr). destruct rest as [|c ar].
  - rewrite app_nil_r. reflexivity.
  - specialize (IH ar [] R). rewrite app_length in Hf. cbn [length] in Hf.
    destruct (rev_chunk f (rev ar) []) as [ls b']. cbn [app rev_spec]. rewrite Hrest, IH by lia. reflexivity.
Qed.

Lemma revreadlines_go_spec : forall fuel b front buf, (0 < b)%nat -> (length front < fuel)%nat ->
  revreadlines_go fuel b front buf = rev_spec (rev front) buf.
Proof.
  induction fuel as [|f IH]; intros b front buf Hb Hf; [lia|].
  cbn [revreadlines_go]. destruct front as [|x xs] eqn:Efront; [reflexivity|]. rewrite <- Efront in *.
  assert (Hpos : (0 < length front)%nat) by (rewrite Efront; cbn; lia).
  set (k := (length front - b)%nat).
  pose proof (rev_chunk_spec (S (length (skipn k front))) (rev (skipn k front)) buf (rev (firstn k front))) as Hc.
  rewrite rev_involutive, rev_length, <- rev_app_distr, firstn_skipn in Hc.
  destruct (rev_chunk (S (length (skipn k front))) (skipn k front) buf) as [ls b'].
  rewrite Hc, IH by (rewrite ?firstn_length; lia). reflexivity.
Qed.

Theorem revreadlines_spec : forall b data, (0 < b)%nat -> revreadlines b data = rev_spec (rev data) [].
Proof. intros. unfold revreadlines. apply revreadlines_go_spec; [assumption|lia]. Qed.

Fixpoint be_bytes (w : nat) (v : Z) : list Z :=
  match w with O => [] | S w' => be_bytes w' (v / 256) ++ [v mod 256] end.

Lemma be_value_app l b : be_value (l ++ [b]) = 256 * be_value l + b.
Proof. unfold be_value. rewrite fold_left_app. reflexivity. Qed.

Lemma be_bytes_length w : forall v, length (be_bytes w v) = w.
Proof. induction w as [|w IH]; intros v; cbn; [reflexivity|]. rewrite app_length, IH. cbn. lia. Qed.

Lemma be_value_bytes w : forall v, 0 <= v < 256 ^ Z.of_nat w -> be_value (be_bytes w v) = v.
Proof.
  induction w as [|w IH]; intros v Hv.
  - cbn in *. unfold be_value. cbn. lia.
  - cbn [be_bytes]. rewrite be_value_app.
    rewrite Nat2Z.inj_succ, Z.pow_succ_r in Hv by lia.
    rewrite IH by (split; [apply Z.div_pos|apply Z.div_lt_upper_bound]; lia).
    symmetry. apply Z_div_mod_eq_full.
Qed.

Definition ent := (Z * Z * Z)%type.
Definition enc_ent (w1 w2 w3 : nat) (e : ent) : list Z :=
  let '(t, a, b) := e in be_bytes w1 t ++ be_bytes w2 a ++ be_bytes w3 b.
Definition fits (w : nat) (v : Z) : Prop := 0 <= v < 256 ^ Z.of_nat w.
Definition ent_fits (w1 w2 w3 : nat) (e : ent) : Prop :=
  let '(t, a, b) := e in fits w1 t /\ fits w2 a /\ fits w3 b.
(* nunpack of a zero-width field yields the default *)
Definition fieldval (w : nat) (default v : Z) : Z := match w with O => default | _ => v end.

Lemma enc_ent_length w1 w2 w3 e : length (enc_ent w1 w2 w3 e) = (w1 + w2 + w3)%nat.
Proof. destruct e as [[t a] b]. cbn. rewrite !app_length, !be_bytes_length. lia. Qed.

Lemma enc_ents_length w1 w2 w3 es : length (flat_map (enc_ent w1 w2 w3) es) = ((w1 + w2 + w3) * length es)%nat.
Proof. induction es as [|e r IH]; cbn [flat_map length]; [lia|]. rewrite app_length, enc_ent_length, IH. lia. Qed.

Lemma nunpack_be w d v : fits w v -> nunpack (be_bytes w v) d = fieldval w d v.
Proof.
  intros Hv. destruct w as [|w]; [reflexivity|]. unfold nunpack, fieldval.
  destruct (be_bytes (S w) v) eqn:E.
  - apply (f_equal (@length Z)) in E. rewrite be_bytes_length in E. discriminate.
  - rewrite <- E. apply be_value_bytes. exact Hv.
Qed.

Lemma slice_nat d (a n : nat) : slice d (Z.of_nat a) (Z.of_nat a + Z.of_nat n) = firstn n (skipn a d).
Proof. unfold slice. f_equal; [|f_equal]; lia. Qed.

Theorem xs_entry_decode : forall ranges (w1 w2 w3 : nat) es i t a b,
  Forall (ent_fits w1 w2 w3) es -> nth_error es i = Some (t, a, b) ->
  xs_entry (mkXS ranges (Z.of_nat w1) (Z.of_nat w2) (Z.of_nat w3) (flat_map (enc_ent w1 w2 w3) es)) (Z.of_nat i)
  = (fieldval w1 1 t, fieldval w2 0 a, fieldval w3 0 b).
Proof.
  intros ranges w1 w2 w3 es i t a b Hfit Hn. unfold xs_entry, entlen. cbn [fl1 fl2 fl3 xdata].
  destruct (nth_error_split es i Hn) as (l1 & l2 & -> & <-).
  apply Forall_app, proj2, Forall_inv in Hfit. destruct Hfit as (F1 & F2 & F3).
  rewrite slice_nat, <- !Nat2Z.inj_add, <- Nat2Z.inj_mul, slice_nat, !Nat2Z.id.
  rewrite flat_map_app, skipn_app_len by apply enc_ents_length.
  cbn [flat_map]. rewrite firstn_app_len by apply enc_ent_length.
  cbn [enc_ent]. rewrite firstn_app_len, skipn_app_len, firstn_app_len by apply be_bytes_length.
  rewrite app_assoc, skipn_app_len by (rewrite app_length, !be_bytes_length; reflexivity).
  rewrite !nunpack_be by assumption. reflexivity.
Qed.

(* position of the object number among the ids listed by /Index, in order *)
Definition range_ids (sc : Z * Z) : list Z := map (fun k => fst sc + Z.of_nat k) (seq 0 (Z.to_nat (snd sc))).
Fixpoint find_index (x : Z) (l : list Z) (i : nat) : option nat :=
  match l with [] => None | y :: r => if y =? x then Some i else find_index x r (S i) end.

Lemma find_index_app x a b i :
  find_index x (a ++ b) i = match find_index x a i with Some k => Some k | None => find_index x b (i + length a) end.
Proof.
  revert i. induction a as [|y r IH]; intros i; cbn [app find_index length].
  - rewrite Nat.add_0_r. reflexivity.
  - destruct (y =? x); [reflexivity|]. rewrite IH, Nat.add_succ_comm. reflexivity.
Qed.

Lemma find_index_lt x l : forall j k, find_index x l j = Some k -> (k < j + length l)%nat.
Proof.
  induction l as [|y r IH]; intros j k Hk; [discriminate|]. cbn in Hk.
  destruct (y =? x); [inversion Hk; subst; cbn; lia|]. apply IH in Hk. cbn [length]. lia.
Qed.

Lemma range_ids_length start cnt : length (range_ids (start, cnt)) = Z.to_nat cnt.
Proof. unfold range_ids. rewrite map_length. apply seq_length. Qed.

(* the ids of a range are start, start+1, ...: one more id at the end of the range, one more value of x found *)
Lemma find_index_range start cnt x i : 0 <= cnt ->
  find_index x (range_ids (start, cnt)) i =
  if (start <=? x) && (x <? start + cnt) then Some (i + Z.to_nat (x - start))%nat else None.
Proof.
  intros Hc. unfold range_ids. cbn [fst snd]. rewrite <- (Z2Nat.id cnt Hc), Nat2Z.id. generalize (Z.to_nat cnt). clear.
  induction n as [|n IH].
  - cbn. destruct ((start <=? x) && (x <? start + 0)) eqn:E; [lia|reflexivity].
  - rewrite seq_S, map_app, find_index_app, IH, map_length, seq_length, Nat2Z.inj_succ. clear IH. unfold Z.succ. cbn [map find_index Nat.add].
    destruct ((start <=? x) && (x <? start + Z.of_nat n)) eqn:E1, ((start <=? x) && (x <? start + (Z.of_nat n + 1))) eqn:E2,
      (Z.eqb_spec (start + Z.of_nat n) x) as [E3|E3]; try reflexivity; try (exfalso; lia); f_equal; lia.
Qed.

Lemma xs_index_spec : forall ranges x (i : nat), Forall (fun sc => 0 <= snd sc) ranges ->
  xs_index ranges x (Z.of_nat i) = option_map Z.of_nat (find_index x (flat_map range_ids ranges) i).
Proof.
  induction ranges as [|[start cnt] r IH]; intros x i Hnn; [reflexivity|].
  inversion Hnn as [|? ? Hc Hr]; subst. cbn [snd] in Hc.
  cbn [xs_index flat_map]. rewrite find_index_app, (find_index_range start cnt x i Hc), range_ids_length.
  destruct ((start <=? x) && (x <? start + cnt)) eqn:E.
  - cbn [option_map]. f_equal. lia.
  - rewrite <- (IH x _ Hr). f_equal. lia.
Qed.

(* C02: for every W and every /Index partition, get_pos returns the entry stored for the FIRST
   listed occurrence of the object number (type 1 by default when w1 = 0; type 0 = free); the data
   may hold more entries than /Index lists *)
Theorem xs_get_pos_spec : forall ranges (w1 w2 w3 : nat) es x,
  Forall (fun sc => 0 <= snd sc) ranges -> Forall (ent_fits w1 w2 w3) es ->
  (length (flat_map range_ids ranges) <= length es)%nat ->
  xs_get_pos (mkXS ranges (Z.of_nat w1) (Z.of_nat w2) (Z.of_nat w3) (flat_map (enc_ent w1 w2 w3) es)) x =
  match find_index x (flat_map range_ids ranges) 0 with
  | None => None
  | Some i => match nth_error es i with
              | Some (t, a, b) =>
                  let t' := fieldval w1 1 t in
                  if t' =? 1 then Some (EDirect (fieldval w2 0 a) (fieldval w3 0 b))
                  else if t' =? 2 then Some (EInStm (fieldval w2 0 a) (fieldval w3 0 b)) else None
              | None => None
              end
  end.
Proof.
  intros ranges w1 w2 w3 es x Hnn Hfit Hlen. unfold xs_get_pos. cbn [xranges].
  rewrite (xs_index_spec ranges x 0 Hnn : xs_index ranges x 0 = _).
  destruct (find_index x (flat_map range_ids ranges) 0) as [i|] eqn:Ef; cbn [option_map]; [|reflexivity].
  destruct (nth_error es i) as [[[t a] b]|] eqn:En.
  - rewrite (xs_entry_decode ranges w1 w2 w3 es i t a b Hfit En). reflexivity.
  - apply nth_error_None in En. apply find_index_lt in Ef. lia.
Qed.

(* first section that knows the object and whose offset holds that object *)
Fixpoint first_valid (secs : list section) (c : content) (objid : Z) : option oval :=
  match secs with
  | [] => None
  | s :: r =>
      match sec_get_pos s objid with
      | Some (EDirect pos _) =>
          match c pos with
          | Some (id1, v) => if id1 =? objid then Some v else first_valid r c objid
          | None => first_valid r c objid
          end
      | _ => first_valid r c objid
      end
  end.

Definition no_compressed (secs : list section) (objid : Z) : Prop :=
  forall s stm k, In s secs -> sec_get_pos s objid <> Some (EInStm stm k).

Theorem getobj_direct : forall fuel secs c objid, no_compressed secs objid ->
  getobj (S fuel) secs c objid = match first_valid secs c objid with Some v => GFound v | None => GNotFound end.
Proof.
  intros fuel secs c objid. unfold no_compressed. cbn [getobj].
  (* the loop over the sections is a local fixpoint that also mentions the whole list: induction on its argument alone *)
  match goal with |- _ -> ?try secs = _ =>
    enough (H : forall l, (forall s stm k, In s l -> sec_get_pos s objid <> Some (EInStm stm k)) ->
                          try l = match first_valid l c objid with Some v => GFound v | None => GNotFound end)
      by apply H end.
  induction l as [|s r IH]; intros Hl; [reflexivity|]. cbn [first_valid].
  specialize (IH (fun s0 stm k H => Hl s0 stm k (or_intror H))).
  destruct (sec_get_pos s objid) as [[pos g|stm k]|] eqn:E; [| |exact IH].
  - destruct (c pos) as [[id1 v]|]; [destruct (id1 =? objid); [reflexivity|]|]; exact IH.
  - exfalso. exact (Hl s stm k (or_introl eq_refl) E).
Qed.

Definition inuse (w1 : nat) (e : ent) : bool :=
  let '(t, _, _) := e in let t' := fieldval w1 1 t in (t' =? 1) || (t' =? 2).

Section ObjIds.
  Variables (ranges0 : list (Z * Z)) (w1 w2 w3 : nat) (es : list ent).
  Hypothesis Hfit : Forall (ent_fits w1 w2 w3) es.
  Hypothesis Hpos : (0 < w1 + w2 + w3)%nat.
  Let x := mkXS ranges0 (Z.of_nat w1) (Z.of_nat w2) (Z.of_nat w3) (flat_map (enc_ent w1 w2 w3) es).

  (* one /Index range: the ids start+i, ... paired with the entries from position index+i on; when the entries
     run out the loop breaks and [combine] stops *)
  Lemma objids_range : forall n start i index,
    xs_objids_range x start n (Z.of_nat i) (Z.of_nat index) =
    map fst (filter (fun p => inuse w1 (snd p))
                    (combine (map (fun k => start + Z.of_nat k) (seq i n)) (skipn (index + i) es))).
  Proof.
    induction n as [|n IH]; intros start i index; [reflexivity|].
    cbn [xs_objids_range seq map]. rewrite <- !Nat2Z.inj_add.
    unfold entlen, x at 1 2 3 4. cbn [fl1 fl2 fl3 xdata]. rewrite enc_ents_length, <- !Nat2Z.inj_add, <- Nat2Z.inj_mul.
    destruct (nth_error es (index + i)) as [[[t a] b]|] eqn:En.
    - assert (Hi : (index + i < length es)%nat) by (apply nth_error_Some; rewrite En; discriminate).
      replace (_ <=? _) with false by (symmetry; apply Z.leb_gt; nia).
      unfold x. rewrite (xs_entry_decode ranges0 w1 w2 w3 es (index + i) t a b Hfit En). fold x.
      replace (Z.of_nat i + 1) with (Z.of_nat (S i)) by lia.
      rewrite IH, Nat.add_succ_r, (skipn_nth_error _ _ _ En).
      cbn [combine filter snd inuse]. destruct ((fieldval w1 1 t =? 1) || (fieldval w1 1 t =? 2)); reflexivity.
    - apply nth_error_None in En. rewrite (skipn_all2 _ En).
      replace (_ <=? _) with true by (symmetry; apply Z.leb_le; nia). reflexivity.
  Qed.

  Lemma objids_go : forall rs index, Forall (fun sc => 0 <= snd sc) rs ->
    xs_objids_go x rs (Z.of_nat index) =
    map fst (filter (fun p => inuse w1 (snd p)) (combine (flat_map range_ids rs) (skipn index es))).
  Proof.
    induction rs as [|[start cnt] r IH]; intros index Hr; [reflexivity|].
    inversion Hr as [|? ? Hc Hr']; subst. cbn [snd] in Hc.
    cbn [xs_objids_go flat_map]. rewrite (objids_range (Z.to_nat cnt) start 0 index : xs_objids_range x start _ 0 _ = _).
    rewrite <- (Z2Nat.id cnt Hc) at 2. rewrite <- Nat2Z.inj_add, IH by exact Hr'.
    rewrite combine_app_l, filter_app, map_app, range_ids_length, skipn_add, Nat.add_0_r. reflexivity.
  Qed.
End ObjIds.

Fixpoint pad (k : nat) (v : Z) : list Z :=
  match k with O => [] | S k' => pad k' (v / 10) ++ [48 + v mod 10] end.

Lemma pad_digits k : forall v, forallb is_digit (pad k v) = true.
Proof.
  induction k as [|k IH]; intros v; [reflexivity|]. cbn [pad]. rewrite forallb_app, IH.
  cbn [forallb andb]. unfold is_digit. pose proof (Z.mod_pos_bound v 10). lia.
Qed.

Lemma pad_value k : forall v, 0 <= v < 10 ^ Z.of_nat k ->
  fold_left (fun a d => 10 * a + (d - 48)) (pad k v) 0 = v.
Proof.
  induction k as [|k IH]; intros v Hv.
  - cbn in *. lia.
  - cbn [pad]. rewrite fold_left_app. cbn [fold_left]. rewrite Nat2Z.inj_succ, Z.pow_succ_r in Hv by lia.
    rewrite IH by (split; [apply Z.div_pos|apply Z.div_lt_upper_bound]; lia).
    rewrite (Z_div_mod_eq_full v 10) at 3. lia.
Qed.

Lemma pad_length k : forall v, length (pad k v) = k.
Proof. induction k as [|k IH]; intros v; cbn; [reflexivity|]. rewrite app_length, IH. cbn. lia. Qed.

Lemma parse_nat_pad k v : (0 < k)%nat -> 0 <= v < 10 ^ Z.of_nat k -> parse_nat (pad k v) = Some v.
Proof.
  intros Hk Hv. unfold parse_nat. destruct (pad k v) eqn:E.
  - apply (f_equal (@length Z)) in E. rewrite pad_length in E. cbn in E. lia.
  - rewrite <- E, pad_digits, pad_value by exact Hv. reflexivity.
Qed.

Definition nosp (l : list Z) : Prop := forallb (fun c => negb (c =? 32)) l = true.

Lemma split_sp_nosp a : nosp a -> forall r cur, split_sp (a ++ r) cur = split_sp r (rev a ++ cur).
Proof.
  unfold nosp. induction a as [|c a IH]; intros Ha r cur; [reflexivity|].
  cbn [forallb] in Ha. apply andb_true_iff in Ha. destruct Ha as [Hc Ha]. apply negb_true_iff in Hc.
  cbn [app split_sp rev]. rewrite Hc, (IH Ha), <- app_assoc. reflexivity.
Qed.
Lemma split_sp_last a : nosp a -> forall cur, split_sp a cur = [rev cur ++ a].
Proof.
  intros Ha cur. rewrite <- (app_nil_r a) at 1. rewrite (split_sp_nosp a Ha). cbn [split_sp].
  rewrite rev_app_distr, rev_involutive. reflexivity.
Qed.

Lemma digits_nosp l : forallb is_digit l = true -> nosp l.
Proof. apply forallb_impl. unfold is_digit. lia. Qed.

Lemma lstrip_ws_app ws r : forallb is_strip_ws ws = true -> lstrip (ws ++ r) = lstrip r.
Proof.
  induction ws as [|c w IH]; intros H; [reflexivity|]. cbn [forallb] in H. apply andb_true_iff in H.
  destruct H as [Hc Hw]. cbn [app lstrip]. rewrite Hc. apply IH. exact Hw.
Qed.

Lemma strip_body ws1 ws2 x : forallb is_strip_ws ws1 = true -> forallb is_strip_ws ws2 = true ->
  (forall t, lstrip (x ++ t) = x ++ t) -> lstrip (rev x) = rev x -> strip (ws1 ++ x ++ ws2) = x.
Proof.
  intros H1 H2 Hx Hr. unfold strip.
  rewrite (lstrip_ws_app ws1 _ H1), Hx, rev_app_distr, lstrip_ws_app, Hr by (rewrite forallb_rev; exact H2).
  apply rev_involutive.
Qed.

Lemma entry_line_fields p g u e : p <> [] -> forallb is_digit p = true -> forallb is_digit g = true ->
  is_strip_ws u = false -> forallb is_strip_ws e = true ->
  split_sp (strip (p ++ [32] ++ g ++ [32; u] ++ e)) [] = [p; g; [u]].
Proof.
  intros Hne Dp Dg Hu He.
  replace (p ++ [32] ++ g ++ [32; u] ++ e) with ([] ++ (p ++ [32] ++ g ++ [32; u]) ++ e) by (rewrite <- !app_assoc; reflexivity).
  rewrite strip_body; [|reflexivity|exact He| |].
  - unfold is_strip_ws in Hu. apply orb_false_iff, proj2 in Hu.
    rewrite (split_sp_nosp _ (digits_nosp _ Dp)). cbn [app split_sp Z.eqb Pos.eqb].
    rewrite (split_sp_nosp _ (digits_nosp _ Dg)). cbn [app split_sp Z.eqb Pos.eqb rev]. rewrite Hu.
    rewrite !app_nil_r, !rev_involutive. reflexivity.
  - intros t. destruct p as [|f p']; [congruence|]. cbn [forallb] in Dp. apply andb_true_iff, proj1 in Dp.
    cbn [app lstrip]. replace (is_strip_ws f) with false by (unfold is_strip_ws, is_digit in *; lia). reflexivity.
  - rewrite !rev_app_distr. cbn [rev app lstrip]. rewrite Hu. reflexivity.
Qed.

Definition ent_eol_ok (e : list Z) : Prop := e = [32; 10] \/ e = [32; 13] \/ e = [13; 10].

