(* C13 proofs: reference chains end within the hop limit; the path-guarded descent and the visited-set reader of the
   cross-reference chain terminate on every finite graph, by counting the nodes not yet on the path or in the set. *)
From Coq Require Import ZArith List Bool Lia.
From PdfV Require Import Base.ListX Model.Guards.
Import ListNotations.
Open Scope Z_scope.

Inductive chain (st : store) : obj -> nat -> Z -> Prop :=
| chain_val v : chain st (OVal v) 0 v
| chain_ref id y n v : st id = Some y -> chain st y n v -> chain st (ORef id) (S n) v.

Lemma resolve_go_chain st d : forall n x v fuel, chain st x n v -> (n <= fuel)%nat -> resolve_go st d fuel x = OVal v.
Proof.
  induction n as [|n IH]; intros x v fuel H Hf; inversion H; subst.
  - destruct fuel; reflexivity.
  - destruct fuel as [|f]; [lia|]. cbn [resolve_go]. rewrite H1. apply IH; [assumption|lia].
Qed.

(* references that only ever lead to references of a set closed under the store (the members of a cycle and what leads
   into it, whatever else the store holds) end with the default: every hop spends one unit of the budget *)
Lemma resolve_go_cycle st d (R : Z -> Prop) : (forall i, R i -> exists j, R j /\ st i = Some (ORef j)) ->
  forall fuel i, R i -> resolve_go st d fuel (ORef i) = d.
Proof.
  intros Hc. induction fuel as [|f IH]; intros i Hi; [reflexivity|].
  cbn [resolve_go]. destruct (Hc i Hi) as (j & Hj & ->). exact (IH j Hj).
Qed.

Theorem resolve1_value st d v : resolve1 st d (OVal v) = OVal v.
Proof. reflexivity. Qed.

Lemma mem_in x l : mem x l = true <-> In x l.
Proof.
  induction l as [|y r IH]; cbn [mem In]; [split; [discriminate|tauto]|].
  rewrite orb_true_iff, Z.eqb_eq, IH. split; intros [H|H]; auto.
Qed.

Section Descent.
  Variable kids : Z -> list Z.
  Variable U : list Z.                                     (* the object numbers of the document *)
  Hypothesis closed : forall n, In n U -> incl (kids n) U.

  Theorem descend_terminates : forall fuel path n, NoDup path -> incl path U -> In n U ->
    (length U - length path < fuel)%nat -> exists r, descend kids fuel path n = Some r.
  Proof.
    induction fuel as [|f IH]; intros path n Hnd Hincl Hn Hf; [lia|].
    cbn [descend]. destruct (mem n path) eqn:Em; [eexists; reflexivity|].
    assert (Hnp : ~ In n path) by (intros H; apply mem_in in H; congruence).
    assert (Hnd' : NoDup (n :: path)) by (constructor; assumption).
    assert (Hincl' : incl (n :: path) U) by (apply incl_cons; assumption).
    (* a duplicate-free path inside U is no longer than U: the longer path leaves less fuel to need *)
    pose proof (NoDup_incl_length Hnd' Hincl') as Hlen. cbn [length] in Hlen.
    (* the loop over the kids is a local fixpoint of [descend]: named from the goal, then induction on its argument *)
    match goal with |- exists r, option_map (cons n) (?go (kids n)) = Some r =>
      enough (Hkids : forall ks, incl ks U -> exists r, go ks = Some r)
        by (destruct (Hkids (kids n) (closed n Hn)) as [r ->]; eexists; reflexivity) end.
    induction ks as [|k r IHk]; intros Hk; [eexists; reflexivity|]. apply incl_cons_inv in Hk.
    destruct (IH (n :: path) k Hnd' Hincl' (proj1 Hk)) as [a ->]; [cbn [length]; lia|].
    destruct (IHk (proj2 Hk)) as [b ->]. eexists; reflexivity.
  Qed.

End Descent.

Section XRead.
  Variable links : Z -> list Z.
  Variable U : list Z.
  Hypothesis closed : forall n, In n U -> incl (links n) U.

  Definition unv (vis : list Z) : nat := length (filter (fun u => negb (mem u vis)) U).

  Lemma unv_mono vis vis' : incl vis vis' -> (unv vis' <= unv vis)%nat.
  Proof.
    intros H. apply filter_length_le. intros x Hx. apply negb_true_iff. apply negb_true_iff in Hx.
    destruct (mem x vis) eqn:E; [|reflexivity]. apply mem_in, H, mem_in in E. congruence.
  Qed.
  Lemma unv_add vis n : In n U -> mem n vis = false -> (unv (n :: vis) < unv vis)%nat.
  Proof.
    intros Hn Hm. apply (filter_length_lt _ _ U n Hn); cbn [mem]; [rewrite Z.eqb_refl; reflexivity|rewrite Hm; reflexivity|].
    intros x Hx. rewrite negb_orb in Hx. apply andb_true_iff in Hx. apply Hx.
  Qed.

  (* what a run of xread guarantees *)
  Definition good (vis : list Z) (res : list Z * list Z) : Prop :=
    let '(vis', o) := res in
    incl vis vis' /\ NoDup o /\ (forall x, In x o -> ~ In x vis) /\ (forall x, In x vis' <-> In x vis \/ In x o) /\ incl o U.

  Lemma good_nil vis : good vis (vis, []).
  Proof. cbn. repeat split; [apply incl_refl|constructor|intros x []|tauto|tauto|intros x []]. Qed.
  Lemma good_cons vis s vis' o : ~ In s vis -> In s U -> good (s :: vis) (vis', o) -> good vis (vis', s :: o).
  Proof.
    intros Hs HU (I1 & N1 & D1 & M1 & U1). cbn. repeat split.
    - exact (fun x Hx => I1 x (or_intror Hx)).
    - constructor; [intros Hin; exact (D1 s Hin (or_introl eq_refl))|exact N1].
    - intros x [<-|Hx] Hin; [exact (Hs Hin)|exact (D1 x Hx (or_intror Hin))].
    - intros Hx. apply M1 in Hx. cbn [In] in Hx. tauto.
    - intros Hx. apply M1. cbn [In]. tauto.
    - apply incl_cons; assumption.
  Qed.
  Lemma good_app vis v1 o1 v2 o2 : good vis (v1, o1) -> good v1 (v2, o2) -> good vis (v2, o1 ++ o2).
  Proof.
    intros (I1 & N1 & D1 & M1 & U1) (I2 & N2 & D2 & M2 & U2). cbn. repeat split.
    - exact (incl_tran I1 I2).
    - apply NoDup_app_intro; [exact N1|exact N2|]. intros x H1 H2. apply (D2 x H2), M1. right. exact H1.
    - intros x Hx Hin. apply in_app_or in Hx. destruct Hx as [Hx|Hx]; [exact (D1 x Hx Hin)|exact (D2 x Hx (I1 x Hin))].
    - intros Hx. apply M2 in Hx. rewrite (M1 x) in Hx. rewrite in_app_iff. tauto.
    - intros Hx. apply M2. rewrite (M1 x). rewrite in_app_iff in Hx. tauto.
    - apply incl_app; assumption.
  Qed.

  Theorem xread_terminates : forall fuel vis start, In start U -> (unv vis < fuel)%nat ->
    exists res, xread links fuel vis start = Some res /\ good vis res.
  Proof.
    induction fuel as [|f IH]; intros vis start Hs Hf; [lia|].
    cbn [xread]. destruct (mem start vis) eqn:Em; [exists (vis, []); split; [reflexivity|apply good_nil]|].
    pose proof (unv_add vis start Hs Em) as Hlt.
    (* the inner loop named from the goal, as in descend_terminates; it threads the visited set *)
    match goal with |- exists res, match ?go (links start) (start :: vis) with _ => _ end = _ /\ _ =>
      assert (G : forall ks vis0, incl ks U -> (unv vis0 < f)%nat -> exists res, go ks vis0 = Some res /\ good vis0 res) end.
    { induction ks as [|k r IHr]; intros vis0 Hk Hv; [exists (vis0, []); split; [reflexivity|apply good_nil]|].
      apply incl_cons_inv in Hk.
      destruct (IH vis0 k (proj1 Hk) Hv) as ([vis1 o1] & E1 & G1).
      destruct (IHr vis1 (proj2 Hk)) as ([vis2 o2] & E2 & G2); [pose proof (unv_mono vis0 vis1 (proj1 G1)); lia|].
      exists (vis2, o1 ++ o2). rewrite E1, E2. split; [reflexivity|exact (good_app _ _ _ _ _ G1 G2)]. }
    destruct (G (links start) (start :: vis) (closed start Hs)) as ([vis' o] & E & Hg); [lia|].
    rewrite E. exists (vis', start :: o). split; [reflexivity|]. apply good_cons; [|exact Hs|exact Hg].
    intros Hin. apply mem_in in Hin. congruence.
  Qed.

End XRead.
