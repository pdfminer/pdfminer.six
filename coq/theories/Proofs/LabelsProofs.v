(* C17 proofs: number trees, page-label ranges, roman numerals, text strings. *)
From Coq Require Import ZArith List Bool Lia Permutation.
From PdfV Require Import Gen.TextTables Model.Labels.
Import ListNotations.
Open Scope Z_scope.

Section Sort.
  Variable V : Type.
  Notation entry := (Z * V)%type.

  Fixpoint insert_entry (x : entry) (l : list entry) : list entry :=
    match l with
    | [] => [x]
    | y :: r => if fst x <=? fst y then x :: y :: r else y :: insert_entry x r
    end.

  Lemma stable_sort_unfold (l : list entry) : stable_sort l = fold_right insert_entry [] l.
  Proof. reflexivity. Qed.

  Fixpoint sortedk (l : list entry) : Prop :=
    match l with
    | [] => True
    | x :: r => match r with [] => True | y :: _ => fst x <= fst y end /\ sortedk r
    end.

  Lemma insert_entry_perm (x : entry) (l : list entry) : Permutation (x :: l) (insert_entry x l).
  Proof.
    induction l as [|y r IH]; cbn; [apply Permutation_refl|].
    destruct (fst x <=? fst y); [apply Permutation_refl|].
    eapply Permutation_trans; [apply perm_swap|]. apply perm_skip. exact IH.
  Qed.

  Lemma insert_entry_sorted (x : entry) (l : list entry) : sortedk l -> sortedk (insert_entry x l).
  Proof.
    induction l as [|y r IH]; intros H; cbn [insert_entry]; [cbn; auto|].
    destruct (fst x <=? fst y) eqn:E.
    - apply Z.leb_le in E. cbn [sortedk]. split; [exact E|exact H].
    - apply Z.leb_gt in E. destruct H as [Hy Hr]. specialize (IH Hr).
      cbn [sortedk]. split; [|exact IH].
      destruct r as [|z r']; cbn [insert_entry]; [lia|].
      destruct (fst x <=? fst z); cbn; lia.
  Qed.

  Lemma stable_sort_perm (l : list entry) : Permutation l (stable_sort l).
  Proof.
    rewrite stable_sort_unfold. induction l as [|x r IH]; cbn [fold_right]; [constructor|].
    eapply Permutation_trans; [apply perm_skip; exact IH|apply insert_entry_perm].
  Qed.

  Lemma stable_sort_sorted (l : list entry) : sortedk (stable_sort l).
  Proof.
    rewrite stable_sort_unfold. induction l as [|x r IH]; cbn [fold_right]; [exact I|].
    apply insert_entry_sorted. exact IH.
  Qed.

  Lemma insert_entry_head (x : entry) (l : list entry) : sortedk (x :: l) -> insert_entry x l = x :: l.
  Proof.
    destruct l as [|y r]; cbn; [reflexivity|]. intros [H _].
    apply Z.leb_le in H. rewrite H. reflexivity.
  Qed.
  Lemma stable_sort_id (l : list entry) : sortedk l -> stable_sort l = l.
  Proof.
    rewrite stable_sort_unfold. induction l as [|x r IH]; intros H; [reflexivity|].
    cbn [fold_right]. destruct H as [Hx Hr]. rewrite IH by exact Hr.
    apply insert_entry_head. split; assumption.
  Qed.

End Sort.

Definition range_label (ld : labeldict) (v : Z) : lres := prefixed (lprefix ld) (format_page_label v (lstyle ld)).

Fixpoint sorted_starts (ranges : list (Z * labeldict)) : Prop :=
  match ranges with
  | [] => True
  | (a, _) :: r => match r with [] => True | (b, _) :: _ => a <= b end /\ sorted_starts r
  end.

Lemma spec_range_mono ranges : forall i cur,
  sorted_starts ranges -> (forall a ld, nth_error ranges 0 = Some (a, ld) -> i < a) ->
  spec_range ranges i cur = cur.
Proof.
  destruct ranges as [|[a ld] r]; intros i cur Hs Hlt; [reflexivity|].
  cbn [spec_range]. specialize (Hlt a ld eq_refl).
  assert (E : (a <=? i) = false) by (apply Z.leb_gt; lia). rewrite E. reflexivity.
Qed.

Lemma label_at_cons2 a ld b ld2 r k :
  label_at ((a, ld) :: (b, ld2) :: r) k =
  if k <? Z.max 0 (b - a) then Some (range_label ld (lfirst ld + k)) else label_at ((b, ld2) :: r) (k - Z.max 0 (b - a)).
Proof. reflexivity. Qed.

(* the generator when its head range starts at any page a, k labels into that range; C17_label is the case a = 0 *)
Lemma label_at_spec : forall ranges a ld k,
  sorted_starts ((a, ld) :: ranges) ->
  label_at ((a, ld) :: ranges) k =
  match spec_range ranges (a + k) (Some (a, ld)) with
  | Some (s, d) => Some (range_label d (lfirst d + (a + k - s)))
  | None => None
  end.
Proof.
  induction ranges as [|[b ld2] r IH]; intros a ld k Hs.
  - cbn [label_at spec_range]. unfold range_label. f_equal. f_equal. f_equal. lia.
  - rewrite label_at_cons2. destruct Hs as [Hab Hs']. cbn [spec_range].
    destruct (k <? Z.max 0 (b - a)) eqn:E.
    + apply Z.ltb_lt in E. assert (E2 : (b <=? a + k) = false) by (apply Z.leb_gt; lia).
      rewrite E2. unfold range_label. f_equal. f_equal. f_equal. lia.
    + apply Z.ltb_ge in E. assert (E2 : (b <=? a + k) = true) by (apply Z.leb_le; lia).
      rewrite E2. rewrite (IH b ld2 (k - Z.max 0 (b - a)) Hs').
      replace (b + (k - Z.max 0 (b - a))) with (a + k) by lia. reflexivity.
Qed.

Lemma with_index0_head ranges : exists ld r, with_index0 ranges = (0, ld) :: r.
Proof.
  destruct ranges as [|[a ld] r]; cbn; [eauto|].
  destruct a; eauto.
Qed.

(* what one round of the loop puts in front of the result is the spec's numeral for that decimal digit *)
Lemma roman_round r one five ten (res : list Z) : 0 <= r <= 9 ->
  (if r =? 9 then one :: ten :: res else if r =? 4 then one :: five :: res
   else if 5 <=? r then five :: rep one (r - 5) ++ res else rep one r ++ res)
  = roman_digit r one five ten ++ res.
Proof.
  intros H. assert (C : r = 0 \/ r = 1 \/ r = 2 \/ r = 3 \/ r = 4 \/ r = 5 \/ r = 6 \/ r = 7 \/ r = 8 \/ r = 9) by lia.
  repeat destruct C as [->|C]; try subst r; reflexivity.
Qed.

(* a round on value 0 is the exit of the loop: it would add the empty numeral of digit 0 *)
Lemma roman_go_S f v idx res :
  roman_go (S f) v idx res =
  roman_go f (v / 10) (S idx)
    (roman_digit (v mod 10) (nthz ROMAN_ONES idx) (nthz ROMAN_FIVES idx) (nthz ROMAN_ONES (S idx)) ++ res).
Proof.
  cbn [roman_go]. destruct (v =? 0) eqn:E.
  - apply Z.eqb_eq in E. subst v. destruct f; reflexivity.
  - cbv zeta. rewrite roman_round by (pose proof (Z.mod_pos_bound v 10); lia). reflexivity.
Qed.

(* four rounds use up a value below 10000; below 4000 the thousands digit is 0..3 and its numeral a run of M *)
Theorem roman_all : forall n, 0 < n < 4000 -> format_int_roman n = Some (spec_roman n).
Proof.
  intros n Hn. unfold format_int_roman, spec_roman.
  replace ((0 <? n) && (n <? 4000)) with true by lia. f_equal.
  do 4 rewrite roman_go_S. rewrite !Z.div_div by lia.
  change (10 * 10) with 100. change (10 * 100) with 1000. change (10 * 1000) with 10000.
  rewrite (Z.div_small n 10000) by lia. cbn [roman_go Z.eqb nthz nth ROMAN_ONES ROMAN_FIVES].
  rewrite (Z.mod_small (n / 1000)) by (split; [apply Z.div_pos|apply Z.div_lt_upper_bound]; lia).
  assert (C : n / 1000 = 0 \/ n / 1000 = 1 \/ n / 1000 = 2 \/ n / 1000 = 3)
    by (pose proof (Z.div_pos n 1000); pose proof (Z.div_lt_upper_bound n 1000 4); lia).
  rewrite app_nil_r. f_equal. repeat destruct C as [->|C]; try rewrite C; reflexivity.
Qed.

Definition scalar (c : Z) : Prop := (0 <= c < 55296) \/ (57344 <= c < 1114112).

(* UTF-16BE encoding of one code point *)
Definition enc16 (c : Z) : list Z :=
  if c <? 65536 then [c / 256; c mod 256]
  else let v := c - 65536 in
       let hi := 55296 + v / 1024 in let lo := 56320 + v mod 1024 in
       [hi / 256; hi mod 256; lo / 256; lo mod 256].

Lemma inb_true lo hi u : lo <= u <= hi -> (lo <=? u) && (u <=? hi) = true.
Proof. lia. Qed.
Lemma inb_false lo hi u : u < lo \/ hi < u -> (lo <=? u) && (u <=? hi) = false.
Proof. lia. Qed.

(* one decoding step consumes exactly the encoding of one scalar value: two bytes outside the surrogate
   ranges, or a high and a low surrogate *)
Lemma utf16_step c rest fuel : scalar c -> utf16be (S fuel) (enc16 c ++ rest) = c :: utf16be fuel rest.
Proof.
  intros Hc. unfold enc16, scalar in *. destruct (Z.ltb_spec c 65536) as [E|E].
  - cbn [app utf16be]. rewrite <- (Z_div_mod_eq_full c 256), !inb_false by lia. reflexivity.
  - cbv zeta. cbn [app utf16be]. set (v := c - 65536).
    assert (Hd : 0 <= v / 1024 < 1024) by (split; [apply Z.div_pos|apply Z.div_lt_upper_bound]; lia).
    pose proof (Z.mod_pos_bound v 1024 eq_refl) as Hm.
    rewrite <- !Z_div_mod_eq_full, !inb_true by lia. f_equal.
    pose proof (Z_div_mod_eq_full v 1024). lia.
Qed.

Lemma utf16_decode cps : Forall scalar cps -> forall fuel, (length (flat_map enc16 cps) <= fuel)%nat ->
  utf16be fuel (flat_map enc16 cps) = cps.
Proof.
  induction 1 as [|c r Hc Hr IH]; intros fuel Hf; [destruct fuel; reflexivity|].
  cbn [flat_map] in *. rewrite app_length in Hf.
  assert (2 <= length (enc16 c))%nat by (unfold enc16; destruct (c <? 65536); cbn; lia).
  destruct fuel as [|fuel]; [lia|]. rewrite utf16_step by exact Hc. f_equal. apply IH. lia.
Qed.

(* C17: a text string with a byte-order mark decodes to exactly the encoded code points *)
Theorem decode_utf16 : forall cps, Forall scalar cps ->
  decode_text (254 :: 255 :: flat_map enc16 cps) = cps.
Proof. intros cps H. apply utf16_decode; [exact H|lia]. Qed.

