(* The lines built by group_objects are described twice: by an equation for their glyphs (go_loop_glyphs) and by an
   induction principle for whatever a first glyph establishes and line_add keeps (go_loop_Forall).  Then: insertion
   sort gives a sorted permutation, and the facts about enumerate used by the numbering theorems. *)
From Coq Require Import QArith List Permutation.
From PdfV Require Import Base.Num Model.Plane Model.Layout.
Import ListNotations.

Lemma line_glyphs_add p l g : line_glyphs (line_add p l g) = line_glyphs l ++ [g].
Proof.
  unfold line_glyphs, line_add. cbn [lelems]. rewrite !flat_map_app.
  destruct (needs_space p l g); cbn [flat_map app]; rewrite ?app_nil_r; reflexivity.
Qed.

Lemma line_glyphs_new o : line_glyphs (new_line o) = [].
Proof. reflexivity. Qed.

Lemma go_loop_glyphs p : forall rest obj0 cur,
  flat_map line_glyphs (go_loop p obj0 cur rest) =
    (match cur with Some l => line_glyphs l | None => [obj0] end) ++ rest.
Proof.
  induction rest as [|obj1 r IH]; intros obj0 cur.
  - cbn [go_loop]. destruct cur as [l|]; cbn [flat_map]; rewrite ?app_nil_r; [reflexivity|].
    rewrite line_glyphs_add, line_glyphs_new. reflexivity.
  - cbn [go_loop]. destruct cur as [l|].
    + destruct ((halign p (gbox obj0) (gbox obj1) && is_h l) || (valign p (gbox obj0) (gbox obj1) && negb (is_h l))).
      * rewrite IH. rewrite line_glyphs_add, <- app_assoc. reflexivity.
      * cbn [flat_map]. rewrite IH. reflexivity.
    + destruct (valign p (gbox obj0) (gbox obj1) && negb (halign p (gbox obj0) (gbox obj1))).
      * rewrite IH. rewrite !line_glyphs_add, line_glyphs_new, <- app_assoc. reflexivity.
      * destruct (halign p (gbox obj0) (gbox obj1) && negb (valign p (gbox obj0) (gbox obj1))).
        -- rewrite IH. rewrite !line_glyphs_add, line_glyphs_new, <- app_assoc. reflexivity.
        -- cbn [flat_map]. rewrite IH. rewrite line_glyphs_add, line_glyphs_new. reflexivity.
Qed.

Definition glyphs_box (gs : list glyph) : option box :=
  fold_left (fun acc g => Some (union_box acc (gbox g))) gs None.
Definition wf_line (l : line) : Prop := lbox l = glyphs_box (line_glyphs l).

Lemma wf_new o : wf_line (new_line o).
Proof. reflexivity. Qed.
Lemma wf_add p l g : wf_line l -> wf_line (line_add p l g).
Proof.
  unfold wf_line. intros H. rewrite line_glyphs_add. unfold glyphs_box. rewrite fold_left_app. cbn [fold_left].
  fold (glyphs_box (line_glyphs l)). rewrite <- H. reflexivity.
Qed.

Lemma go_loop_Forall p (P : line -> Prop) :
  (forall o g, P (line_add p (new_line o) g)) -> (forall l g, P l -> P (line_add p l g)) ->
  forall rest obj0 cur, (match cur with Some l => P l | None => True end) -> Forall P (go_loop p obj0 cur rest).
Proof.
  intros Hnew Hadd. induction rest as [|obj1 r IH]; intros obj0 cur Hc; cbn [go_loop].
  - destruct cur; constructor; auto.
  - destruct cur as [l|].
    + destruct (_ || _); [apply IH, Hadd, Hc|constructor; [exact Hc|apply IH; exact I]].
    + destruct (_ && _); [apply IH, Hadd, Hnew|]. destruct (_ && _); [apply IH, Hadd, Hnew|].
      constructor; [apply Hnew|apply IH; exact I].
Qed.

Lemma insert_le_perm {A} (le : A -> A -> bool) x l : Permutation (insert_le le x l) (x :: l).
Proof.
  induction l as [|y r IH]; [reflexivity|]. cbn [insert_le]. destruct (le x y); [reflexivity|].
  rewrite IH. apply perm_swap.
Qed.
Theorem sort_le_perm {A} (le : A -> A -> bool) l : Permutation (sort_le le l) l.
Proof.
  induction l as [|x r IH]; [reflexivity|]. unfold sort_le. cbn [fold_right]. fold (sort_le le r).
  rewrite insert_le_perm. constructor. exact IH.
Qed.

Fixpoint sorted_le {A} (le : A -> A -> bool) (l : list A) : Prop :=
  match l with
  | [] => True
  | x :: r => match r with [] => True | y :: _ => le x y = true end /\ sorted_le le r
  end.
Lemma insert_le_sorted {A} (le : A -> A -> bool) x l : (forall a b, le a b = false -> le b a = true) ->
  sorted_le le l -> sorted_le le (insert_le le x l).
Proof.
  intros Htot. induction l as [|y r IH]; intros H; [cbn; auto|].
  cbn [insert_le]. destruct (le x y) eqn:E.
  - cbn [sorted_le]. split; [exact E|exact H].
  - destruct H as [Hh Ht]. specialize (IH Ht). cbn [sorted_le]. split; [|exact IH].
    destruct r as [|z r']; cbn [insert_le]; [apply Htot; exact E|].
    destruct (le x z); [apply Htot; exact E|exact Hh].
Qed.
Theorem sort_le_sorted {A} (le : A -> A -> bool) l : (forall a b, le a b = false -> le b a = true) ->
  sorted_le le (sort_le le l).
Proof.
  intros Htot. induction l as [|x r IH]; [exact I|]. unfold sort_le. cbn [fold_right]. fold (sort_le le r).
  apply insert_le_sorted; assumption.
Qed.

Lemma Qle_bool_total a b : Qle_bool a b = false -> Qle_bool b a = true.
Proof. intros H. apply Qle_bool_iff, Qlt_le_weak, Qleb_gt, H. Qed.

Lemma insert_by_le {A} (key : A -> Q) x l : insert_by key x l = insert_le (fun a b => Qle_bool (key a) (key b)) x l.
Proof. induction l as [|y r IH]; [reflexivity|]. cbn [insert_by insert_le]. rewrite IH. reflexivity. Qed.
Lemma sort_by_le {A} (key : A -> Q) l : sort_by key l = sort_le (fun a b => Qle_bool (key a) (key b)) l.
Proof.
  unfold sort_by, sort_le. induction l as [|x l IH]; [reflexivity|]. cbn [fold_right]. rewrite IH. apply insert_by_le.
Qed.

Theorem sort_by_perm {A} (key : A -> Q) l : Permutation (sort_by key l) l.
Proof. rewrite sort_by_le. apply sort_le_perm. Qed.

Fixpoint sorted_by {A} (key : A -> Q) (l : list A) : Prop :=
  match l with
  | [] => True
  | x :: r => match r with [] => True | y :: _ => (key x <= key y)%Q end /\ sorted_by key r
  end.
Theorem sort_by_sorted {A} (key : A -> Q) l : sorted_by key (sort_by key l).
Proof.
  rewrite sort_by_le.
  pose proof (sort_le_sorted _ l (fun a b => Qle_bool_total (key a) (key b))) as H.
  induction (sort_le _ l) as [|x r IH]; [exact I|]. destruct H as [H1 H2]. split; [|exact (IH H2)].
  destruct r; [exact I|apply Qle_bool_iff, H1].
Qed.

Lemma pair_le_total a b : pair_le a b = false -> pair_le b a = true.
Proof.
  unfold pair_le. rewrite (Qeq_bool_comm (fst b)). destruct (Qeq_bool (fst a) (fst b)); apply Qle_bool_total.
Qed.

(* Python's enumerate(l, s) is [combine (seq s (length l)) l] *)
Lemma enum_length {A} (l : list A) s : length (combine (seq s (length l)) l) = length l.
Proof. rewrite combine_length, seq_length. apply Nat.min_id. Qed.

Lemma enum_fst {A} (l : list A) : forall s, map fst (combine (seq s (length l)) l) = seq s (length l).
Proof. induction l as [|x l IH]; intros s; [reflexivity|]. cbn [length seq combine map fst]. f_equal. apply IH. Qed.

Lemma enum_nth {A} (l : list A) : forall s j x,
  nth_error l j = Some x -> In ((s + j)%nat, x) (combine (seq s (length l)) l).
Proof.
  induction l as [|y l IH]; intros s [|j] x E; try discriminate; cbn [length seq combine].
  - injection E as ->. rewrite Nat.add_0_r. left. reflexivity.
  - right. rewrite Nat.add_succ_r. apply (IH (S s)). exact E.
Qed.

Lemma combine_seq_map {A B} (f : nat -> A -> B) (l : list A) : forall s,
  length (map (fun ib => f (fst ib) (snd ib)) (combine (seq s (length l)) l)) = length l.
Proof. intros s. rewrite map_length. apply enum_length. Qed.

