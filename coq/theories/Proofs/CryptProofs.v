(* Model/Crypt.v: RC4 is an involution, the 20 rounds of Algorithms 3 and 7 cancel, password authentication for
   revisions 2-4, PKCS padding, permission bits. *)
From Coq Require Import ZArith List Bool Lia.
From PdfV Require Import Base.ListX Model.Crypt.
Open Scope Z_scope.

Lemma prga_length : forall n s i j, length (prga s i j n) = n.
Proof. induction n as [|n IH]; intros s i j; [reflexivity|]. cbn [prga length]. rewrite IH. reflexivity. Qed.

Lemma xor_bytes_length : forall a b, length (xor_bytes a b) = Nat.min (length a) (length b).
Proof.
  induction a as [|x a IH]; intros [|y b]; try reflexivity. cbn [xor_bytes length Nat.min]. rewrite IH. reflexivity.
Qed.

Lemma xor_twice : forall d k, length k = length d -> xor_bytes (xor_bytes d k) k = d.
Proof.
  induction d as [|x d IH]; intros [|y k] H; try reflexivity; try discriminate.
  cbn [xor_bytes]. rewrite Z.lxor_assoc, Z.lxor_nilpotent, Z.lxor_0_r. f_equal. apply IH. cbn in H. lia.
Qed.

Theorem rc4_length key d : length (rc4 key d) = length d.
Proof. unfold rc4. rewrite xor_bytes_length, prga_length. apply Nat.min_id. Qed.

Theorem rc4_involution key d : rc4 key (rc4 key d) = d.
Proof.
  unfold rc4 at 1. rewrite rc4_length. unfold rc4. apply xor_twice. apply prga_length.
Qed.

Lemma rounds_up_snoc key : forall n i x,
  rc4_rounds_up key i (S n) x = rc4 (xor_key key (i + Z.of_nat n)) (rc4_rounds_up key i n x).
Proof.
  induction n as [|n IH]; intros i x.
  - cbn [rc4_rounds_up]. rewrite Z.add_0_r. reflexivity.
  - change (rc4_rounds_up key i (S (S n)) x) with (rc4_rounds_up key (i + 1) (S n) (rc4 (xor_key key i) x)).
    rewrite IH. cbn [rc4_rounds_up]. replace (i + 1 + Z.of_nat n) with (i + Z.of_nat (S n)) by lia. reflexivity.
Qed.

Lemma rounds_cancel key : forall n i x,
  rc4_rounds_down key (i + Z.of_nat n - 1) n (rc4_rounds_up key i n x) = x.
Proof.
  induction n as [|n IH]; intros i x; [reflexivity|].
  rewrite rounds_up_snoc. cbn [rc4_rounds_down].
  replace (i + Z.of_nat (S n) - 1) with (i + Z.of_nat n) by lia.
  rewrite rc4_involution. apply IH.
Qed.

Lemma pad32_length pw : length (pad32 pw) = 32%nat.
Proof.
  unfold pad32. rewrite firstn_length, app_length. change (length PADDING) with 32%nat. lia.
Qed.
Lemma pad32_idem pw : pad32 (pad32 pw) = pad32 pw.
Proof.
  unfold pad32 at 1. rewrite firstn_app. rewrite pad32_length. replace (32 - 32)%nat with 0%nat by lia.
  rewrite firstn_O, app_nil_r. apply firstn_all2. rewrite pad32_length. lia.
Qed.

Lemma bytes_eqb_eq a : forall b, bytes_eqb a b = true -> a = b.
Proof. intros b. apply (zs_eqb_eq a b). Qed.

Section WithHash.
  Variable md5 : bytes -> bytes.

  Definition with_o (pr : params) (o : bytes) : params :=
    mkParams (revision pr) (keylen pr) (pval pr) o (uval pr) (docid0 pr) (encmeta pr).

  Theorem owner_recovers_user pr owner user :
    owner_recover md5 (with_o pr (spec_compute_o md5 pr owner user)) owner = pad32 user.
  Proof.
    unfold owner_recover, spec_compute_o, with_o, owner_key, nkey. cbn [revision keylen oval].
    destruct (revision pr =? 2).
    - apply rc4_involution.
    - exact (rounds_cancel _ 20 0 (pad32 user)).
  Qed.

  (* the U entry is what Algorithm 4 (revision 2) or Algorithm 5 (its first 16 bytes) writes for this key *)
  Definition u_written (pr : params) (key : bytes) : Prop :=
    if revision pr =? 2 then uval pr = compute_u md5 pr key
    else firstn 16 (uval pr) = firstn 16 (compute_u md5 pr key).

  Lemma verify_of_written pr key : u_written pr key -> verify_encryption_key md5 pr key = true.
  Proof. unfold u_written, verify_encryption_key. intros Hu. destruct (revision pr =? 2); rewrite Hu; apply zs_eqb_refl. Qed.

  Theorem user_authenticates pr user : u_written pr (compute_encryption_key md5 pr user) ->
    authenticate md5 pr user = Some (compute_encryption_key md5 pr user).
  Proof. intros Hu. unfold authenticate, authenticate_user. rewrite (verify_of_written _ _ Hu). reflexivity. Qed.

  Lemma key_of_padded pr pw : compute_encryption_key md5 pr (pad32 pw) = compute_encryption_key md5 pr pw.
  Proof. unfold compute_encryption_key. rewrite pad32_idem. reflexivity. Qed.

  (* the owner password opens the document to the SAME key, when O was written by Algorithm 3 and U by 4 / 5 *)
  Theorem owner_authenticates pr0 owner user :
    let pr := with_o pr0 (spec_compute_o md5 pr0 owner user) in
    u_written pr (compute_encryption_key md5 pr user) ->
    authenticate_owner md5 pr owner = Some (compute_encryption_key md5 pr user).
  Proof.
    intros pr Hu. unfold authenticate_owner. unfold pr at 2. rewrite owner_recovers_user.
    unfold authenticate_user. rewrite key_of_padded, (verify_of_written _ _ Hu). reflexivity.
  Qed.
End WithHash.

Section CBCProofs.
  Variable block_dec block_enc : bytes -> bytes -> bytes.
  Hypothesis dec_enc : forall k b, length b = 16%nat -> block_dec k (block_enc k b) = b.
  Hypothesis enc_len : forall k b, length b = 16%nat -> length (block_enc k b) = 16%nat.

  Theorem cbc_roundtrip key : forall ps iv, length iv = 16%nat -> Forall (fun p => length p = 16%nat) ps ->
    cbc_decrypt block_dec key iv (cbc_encrypt block_enc key iv ps) = ps.
  Proof.
    induction ps as [|p ps IH]; intros iv Hiv Hps; [reflexivity|].
    inversion Hps as [|? ? Hp Hr]; subst. cbn [cbc_encrypt cbc_decrypt].
    assert (Hx : length (xor_bytes p iv) = 16%nat) by (rewrite xor_bytes_length, Hp, Hiv; reflexivity).
    rewrite dec_enc, xor_twice by congruence. f_equal.
    apply IH; [apply enc_len; exact Hx|exact Hr].
  Qed.
End CBCProofs.

(* removing the padding of padded data gives the data: for every length, including multiples of 16 *)
Theorem unpad_pad d : unpad (pkcs_pad d) = d.
Proof.
  unfold pkcs_pad. set (n := 16 - Z.of_nat (length d) mod 16).
  assert (Hn : 1 <= n <= 16) by (unfold n; pose proof (Z.mod_pos_bound (Z.of_nat (length d)) 16 ltac:(lia)); lia).
  unfold unpad. destruct (Z.to_nat n) as [|k] eqn:Ek; [lia|].
  (* the last byte is n *)
  replace (rev (d ++ repeat n (S k))) with (n :: rev (d ++ repeat n k))
    by (cbn [repeat]; rewrite repeat_cons, app_assoc; symmetry; apply rev_unit).
  cbv iota beta. rewrite Ek.
  rewrite app_length, repeat_length, Nat.add_sub, skipn_app_len, firstn_app_len, zs_eqb_refl by reflexivity.
  rewrite (proj2 (Z.leb_le 1 n)), (proj2 (Z.leb_le n 16)) by lia. reflexivity.
Qed.

(* decrypt_aes on IV ++ CBC(pad(data)) gives data, for any CBC oracle that inverts the writer's encryption *)
Theorem aes_roundtrip (cbc : bytes -> bytes -> bytes -> bytes) key iv ct d :
  length iv = 16%nat -> cbc key iv ct = pkcs_pad d -> decrypt_aes cbc key (iv ++ ct) = d.
Proof.
  intros Hiv Hc. unfold decrypt_aes.
  rewrite firstn_app_len, skipn_app_len, Hc by exact Hiv. apply unpad_pad.
Qed.

Lemma land_bit p k : 0 <= k -> (Z.land p (2 ^ k) =? 0) = negb (Z.testbit p k).
Proof.
  intros Hk. destruct (Z.testbit p k) eqn:E.
  - cbn [negb]. apply Z.eqb_neq. intros H0.
    assert (T : Z.testbit (Z.land p (2 ^ k)) k = true) by (rewrite Z.land_spec, E, Z.pow2_bits_true by lia; reflexivity).
    rewrite H0 in T. rewrite Z.bits_0 in T. discriminate.
  - cbn [negb]. apply Z.eqb_eq. apply Z.bits_inj'. intros m Hm. rewrite Z.land_spec, Z.bits_0.
    destruct (Z.eq_dec m k) as [->|Hne]; [rewrite E; reflexivity|].
    rewrite Z.pow2_bits_false by lia. apply andb_false_r.
Qed.

Lemma uint32_bits p k : 0 <= k < 32 -> Z.testbit (uint32 p) k = Z.testbit p k.
Proof.
  intros Hk. unfold uint32. destruct (0 <? p) eqn:E; [reflexivity|].
  rewrite <- (Z.mod_pow2_bits_low (p + 4294967296) 32 k) by lia.
  rewrite <- (Z.mod_pow2_bits_low p 32 k) by lia.
  f_equal. change 4294967296 with (1 * 2 ^ 32). apply Z.mod_add. lia.
Qed.

