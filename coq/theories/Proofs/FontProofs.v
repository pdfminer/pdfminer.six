(* Model/Fonts.v: hexadecimal numerals, the uni/u name grammar against the glyph list, components and dot
   suffixes, Differences, widths. *)
From Coq Require Import ZArith QArith List Lia.
From PdfV Require Import Base.ListX Gen.FontTables Model.Fonts.
Import ListNotations.
Open Scope Z_scope.

Lemma str_eqb_refl a : str_eqb a a = true.
Proof. exact (zs_eqb_refl a). Qed.

Lemma assoc_some {V} k (l : list (str * V)) v : assoc k l = Some v -> In (k, v) l.
Proof.
  induction l as [|[k' v'] l IH]; cbn [assoc]; [discriminate|].
  destruct (str_eqb k k') eqn:E.
  - intros H. injection H as ->. apply zs_eqb_eq in E. subst. left. reflexivity.
  - intros H. right. apply IH. exact H.
Qed.

Lemma hexval_range c : is_hex c = true -> 0 <= hexval c < 16.
Proof.
  unfold is_hex, hexval. intros H.
  destruct ((48 <=? c) && (c <=? 57)) eqn:E1; [lia|].
  destruct ((97 <=? c) && (c <=? 102)) eqn:E2; [lia|].
  cbn [orb] in H. lia.
Qed.

Lemma hexnum_acc_bound : forall s acc, forallb is_hex s = true ->
  let v := fold_left (fun a c => a * 16 + hexval c) s acc in
  acc * 16 ^ Z.of_nat (length s) <= v < (acc + 1) * 16 ^ Z.of_nat (length s).
Proof.
  induction s as [|c s IH]; intros acc Hh.
  - cbn. lia.
  - cbn [forallb] in Hh. apply andb_true_iff in Hh. destruct Hh as [Hc Hs].
    pose proof (hexval_range c Hc) as Hr.
    specialize (IH (acc * 16 + hexval c) Hs).
    cbn [fold_left length]. cbv zeta in *. rewrite Nat2Z.inj_succ, Z.pow_succ_r by lia.
    assert (0 < 16 ^ Z.of_nat (length s)) by (apply Z.pow_pos_nonneg; lia).
    nia.
Qed.

Lemma hexnum_snoc s c : hexnum (s ++ [c]) = hexnum s * 16 + hexval c.
Proof. unfold hexnum. rewrite fold_left_app. reflexivity. Qed.

Lemma chunks4_concat : forall gs fuel, Forall (fun g => length g = 4%nat) gs ->
  (length (concat gs) <= fuel)%nat -> chunks4 fuel (concat gs) = gs.
Proof.
  induction gs as [|g gs IH]; intros fuel Hg Hf.
  - destruct fuel; reflexivity.
  - inversion Hg as [|? ? H4 Hr]; subst.
    destruct g as [|a [|b [|c [|d [|e g']]]]]; try discriminate.
    cbn [concat app] in *. cbn [length] in Hf.
    destruct fuel as [|f]; [lia|].
    cbn [chunks4 firstn skipn]. f_equal. apply IH; [exact Hr|lia].
Qed.

(* the two shapes the grammar of [n2u_component] accepts: uni + groups of four hexadecimal digits, u + four to six.
   [n2u_component] tries uni first; the negation in [u_form] records that, so the two forms are disjoint and
   [n2u_component_eq] may test them in either order *)
Definition uni_form (name : str) : bool :=
  starts_with s_uni name && all_hex (skipn 3 name) && (Z.of_nat (length (skipn 3 name)) mod 4 =? 0).
Definition u_form (name : str) : bool :=
  starts_with s_u name && negb (starts_with s_uni name) && all_hex (skipn 1 name)
  && (4 <=? Z.of_nat (length (skipn 1 name))) && (Z.of_nat (length (skipn 1 name)) <=? 6).

(* table fact: no glyph list name has the uniXXXX or uXXXX shape, so the list never shadows the grammar *)
Lemma glyphlist_no_forms : forallb (fun e => negb (uni_form (fst e) || u_form (fst e))) GLYPHLIST = true.
Proof. vm_compute. reflexivity. Qed.

Lemma form_not_listed name : uni_form name || u_form name = true -> assoc name GLYPHLIST = None.
Proof.
  intros Hf. destruct (assoc name GLYPHLIST) as [v|] eqn:E; [|reflexivity].
  apply assoc_some in E. pose proof glyphlist_no_forms as H. rewrite forallb_forall in H.
  specialize (H _ E). cbn [fst] in H. rewrite Hf in H. discriminate.
Qed.

(* the two branches of the grammar, with the conditions of [n2u_component] collected into the two forms *)
Lemma n2u_component_eq name : n2u_component name =
  match assoc name GLYPHLIST with
  | Some v => Some v
  | None =>
      if u_form name then
        let v := hexnum (skipn 1 name) in if bad_unicode v then None else Some [v]
      else if uni_form name then
        let vals := map hexnum (chunks4 (length (skipn 3 name)) (skipn 3 name)) in
        if existsb bad_unicode vals then None else Some vals
      else None
  end.
Proof.
  unfold n2u_component, uni_form, u_form. destruct (assoc name GLYPHLIST); [reflexivity|].
  destruct (starts_with s_uni name), (starts_with s_u name); cbn [andb negb]; try reflexivity;
    destruct (all_hex (skipn 1 name) && _ && _); reflexivity.
Qed.

Lemma uni_form_groups gs : gs <> [] -> Forall (fun g => length g = 4%nat /\ forallb is_hex g = true) gs ->
  uni_form (s_uni ++ concat gs) = true.
Proof.
  intros Hne Hg. apply Forall_and_inv in Hg as [H4 Hh].
  unfold uni_form, all_hex. change (skipn 3 (s_uni ++ concat gs)) with (concat gs).
  rewrite forallb_concat, (concat_length_uniform 4), Nat2Z.inj_mul, Z.mul_comm, Z_mod_mult by exact H4.
  replace (forallb (forallb is_hex) gs) with true by (symmetry; apply forallb_forall, Forall_forall, Hh).
  destruct gs as [|[|] gs']; [congruence| |reflexivity]. inversion H4 as [|? ? A]. discriminate A.
Qed.

Lemma u_form_digits d : forallb is_hex d = true -> (4 <= length d <= 6)%nat -> u_form (117 :: d) = true.
Proof.
  intros Hh Hl. unfold u_form, all_hex. change (skipn 1 (117 :: d)) with d. rewrite Hh.
  rewrite (proj2 (Z.leb_le 4 _)), (proj2 (Z.leb_le _ 6)) by lia.
  (* the character after u is a hexadecimal digit, not the n of uni *)
  destruct d as [|a [|b d]]; try (cbn in Hl; lia). cbn [forallb] in Hh.
  unfold starts_with. cbn [s_uni s_u length firstn str_eqb].
  destruct (Z.eqb_spec 110 a) as [<-|]; [discriminate Hh|reflexivity].
Qed.

Definition free_of (sep : Z) (s : str) : bool := forallb (fun c => negb (c =? sep)) s.

Lemma split_on_free sep s : free_of sep s = true -> split_on sep s = [s].
Proof.
  induction s as [|c s IH]; intros H; [reflexivity|].
  cbn [free_of forallb] in H. apply andb_true_iff in H. destruct H as [Hc Hs]. apply negb_true_iff in Hc.
  cbn [split_on]. rewrite Hc. rewrite (IH Hs). reflexivity.
Qed.

Lemma split_on_app sep a b : free_of sep a = true -> split_on sep (a ++ sep :: b) = a :: split_on sep b.
Proof.
  induction a as [|c a IH]; intros H.
  - cbn [app split_on]. rewrite Z.eqb_refl. reflexivity.
  - cbn [free_of forallb] in H. apply andb_true_iff in H. destruct H as [Hc Hs]. apply negb_true_iff in Hc.
    cbn [app split_on]. rewrite Hc. rewrite (IH Hs). reflexivity.
Qed.

Fixpoint join (sep : Z) (l : list str) : str :=
  match l with
  | [] => []
  | [a] => a
  | a :: r => a ++ sep :: join sep r
  end.

Lemma split_join sep comps : comps <> [] -> Forall (fun c => free_of sep c = true) comps ->
  split_on sep (join sep comps) = comps.
Proof.
  induction comps as [|a r IH]; intros Hne Hf; [congruence|].
  inversion Hf as [|? ? Ha Hr]; subst.
  destruct r as [|b r'].
  - cbn [join]. apply split_on_free. exact Ha.
  - change (join sep (a :: b :: r')) with (a ++ sep :: join sep (b :: r')).
    rewrite split_on_app by exact Ha. rewrite IH; [reflexivity|discriminate|exact Hr].
Qed.

Lemma free_join sep x comps : x <> sep -> Forall (fun c => free_of x c = true) comps -> free_of x (join sep comps) = true.
Proof.
  intros Hx. induction comps as [|a r IH]; intros Hf; [reflexivity|].
  inversion Hf as [|? ? Ha Hr]; subst. destruct r as [|b r']; [exact Ha|].
  change (join sep (a :: b :: r')) with (a ++ sep :: join sep (b :: r')).
  unfold free_of in *. rewrite forallb_app, Ha. cbn [forallb]. rewrite (IH Hr).
  destruct (Z.eqb_spec sep x); [congruence|reflexivity].
Qed.

(* a suffix that the algorithm drops: nothing, or a period and anything after it *)
Definition dot_suffix (s : str) : Prop := s = [] \/ exists t, s = 46 :: t.

Lemma before_dot_suffix n s : free_of 46 n = true -> dot_suffix s -> before_dot (n ++ s) = n.
Proof.
  intros Hn [-> | [t ->]]; unfold before_dot.
  - rewrite app_nil_r, split_on_free by exact Hn. reflexivity.
  - rewrite split_on_app by exact Hn. reflexivity.
Qed.

Theorem name_of_components comps s : comps <> [] ->
  Forall (fun c => free_of 46 c = true) comps -> Forall (fun c => free_of 95 c = true) comps -> dot_suffix s ->
  name2unicode (join 95 comps ++ s) =
    if (1 <? length comps)%nat then concat_opt (map n2u_component comps) else n2u_component (join 95 comps).
Proof.
  intros Hne Hd Hu Hs. unfold name2unicode.
  rewrite before_dot_suffix, split_join by (try apply free_join; auto; lia). reflexivity.
Qed.

Lemma concat_opt_all l vs : map Some vs = l -> concat_opt l = Some (concat vs).
Proof.
  intros <-. induction vs as [|v vs IH]; [reflexivity|]. cbn [map concat_opt concat]. rewrite IH. reflexivity.
Qed.
Lemma concat_opt_none l : In None l -> concat_opt l = None.
Proof.
  induction l as [|[s|] l IH]; intros H; [contradiction| |reflexivity].
  cbn [concat_opt]. destruct H as [H|H]; [discriminate|]. rewrite (IH H). reflexivity.
Qed.

Theorem placeholder f code : to_unichr f code = None ->
  char_text f code = [40; 99; 105; 100; 58] ++ decimal code ++ [41].
Proof. intros H. unfold char_text. rewrite H. reflexivity. Qed.

Theorem text_defined f code s : to_unichr f code = Some s -> char_text f code = s.
Proof. intros H. unfold char_text. rewrite H. reflexivity. Qed.

(* ISO 32000-1 Table 114: each integer sets the code, each name takes the current code and advances it *)
Fixpoint assignments (d : list ditem) (cid : Z) : list (Z * option str) :=
  match d with
  | [] => []
  | DInt z :: r => assignments r z
  | DName n :: r => (cid, n) :: assignments r (cid + 1)
  | DOther :: r => assignments r cid
  end.
Definition last_assigned (code : Z) (l : list (Z * option str)) (init : option (option str)) : option (option str) :=
  fold_left (fun acc e => if fst e =? code then Some (snd e) else acc) l init.

Lemma last_assigned_cons code e l init :
  last_assigned code (e :: l) init = last_assigned code l (if fst e =? code then Some (snd e) else init).
Proof. reflexivity. Qed.

Lemma last_assigned_init code l : forall init,
  last_assigned code l init = match last_assigned code l None with Some x => Some x | None => init end.
Proof.
  induction l as [|e l IH]; intros init; [reflexivity|].
  rewrite !last_assigned_cons, IH, (IH (if fst e =? code then Some (snd e) else None)).
  destruct (last_assigned code l None); [reflexivity|]. destruct (fst e =? code); reflexivity.
Qed.

Lemma diff_loop_spec code : forall d cid o,
  ov_get (diff_loop d cid o) code =
    match last_assigned code (assignments d cid) None with
    | Some n => Some (name2unicode_obj n)
    | None => ov_get o code
    end.
Proof.
  induction d as [|[z|n|] d IH]; intros cid o; cbn [diff_loop assignments]; [reflexivity|apply IH| |apply IH].
  rewrite last_assigned_cons, last_assigned_init, IH. cbn [fst snd ov_get].
  destruct (last_assigned code (assignments d (cid + 1)) None); [reflexivity|].
  destruct (cid =? code); reflexivity.
Qed.

Lemma assignments_names names c : assignments (map DName names) c = combine (map (fun i => c + Z.of_nat i) (seq 0 (length names))) names.
Proof.
  revert c. induction names as [|n names IH]; intros c; [reflexivity|].
  cbn [map assignments length seq combine]. rewrite Z.add_0_r. f_equal.
  rewrite IH. f_equal. rewrite <- seq_shift, map_map. apply map_ext. intros i. lia.
Qed.

Theorem no_differences nm code : get_encoding nm [] code = enc_base (sel_of_name nm) code.
Proof. reflexivity. Qed.

(* with a Widths array the built-in metrics are not consulted *)
Lemma char_width_widths f l code : fwidths f = Some l ->
  char_width f code =
    match (if code - ffirst f <? 0 then None else nth_error l (Z.to_nat (code - ffirst f))) with
    | Some (WNum w) => (w * hscale f)%Q
    | _ => (match fdescriptor f with Some (mw, _) => mw | None => 0%Q end * hscale f)%Q
    end.
Proof.
  intros Hw. unfold char_width, fmissing, uses_std14, width_list. rewrite Hw.
  destruct (std14_metrics f); reflexivity.
Qed.

Definition is_some {A} (o : option A) : bool := match o with Some _ => true | None => false end.

Lemma decimal_examples : decimal 0 = [48] /\ decimal 65 = [54; 53] /\ decimal 255 = [50; 53; 53] /\ decimal 1000 = [49; 48; 48; 48].
Proof. vm_compute. repeat split. Qed.
