(* C01: sequences of token spellings with optional white space and comments are tokenized into exactly the tokens. *)
From Coq Require Import ZArith List Bool Lia.
From PdfV Require Import Gen.LexClasses Model.Lexer Proofs.LexerProofs Proofs.SpellingProofs Proofs.SpellingProofs2.
Import ListNotations.
Open Scope Z_scope.

Definition tks (st : lst) : list token := map snd (toks st).       (* newest first *)
(* between tokens: the main state, or the state after a '>' that may still become '>>' *)
Definition gap (st : lst) : Prop := lmode st = MMain \/ lmode st = MWClose.

(* s, read between tokens, yields the tokens ts (newest first) and ends between tokens *)
Definition emits (s : list Z) (ts : list token) : Prop :=
  forall st, gap st -> gap (run st s) /\ tks (run st s) = ts ++ tks st.

(* A pending '>' is dropped by any byte but another '>', so what does not start with '>' need only be read from the
   main state. *)
Lemma gap_first st c r : gap st -> c <> 62 ->
  exists st0, lmode st0 = MMain /\ tks st0 = tks st /\ run st (c :: r) = run st0 (c :: r).
Proof.
  intros [Hm|Hm] Hc; [exists st; auto|]. exists (set_mode MMain st). split; [reflexivity|]. split; [reflexivity|].
  rewrite !run_cons. f_equal. apply step_again, step_wclose_other; [exact Hm|lia].
Qed.

Lemma emits_from_main c s ts : c <> 62 ->
  (forall st, lmode st = MMain -> gap (run st (c :: s)) /\ tks (run st (c :: s)) = ts ++ tks st) -> emits (c :: s) ts.
Proof.
  intros Hc H st G. destruct (gap_first st c s G Hc) as (st0 & M0 & T0 & R0). rewrite R0, <- T0. apply H, M0.
Qed.

Lemma completed_emits st st' t : completed (apos st, toks st) st' t -> gap st' /\ tks st' = [t] ++ tks st.
Proof. intros [Hm Ht]. split; [left; exact Hm|]. unfold tks. rewrite Ht. reflexivity. Qed.

Lemma ws_emits c : re_NONSPC c = false \/ c = 0 -> emits [c] [].
Proof.
  intros Hc. apply emits_from_main; [unfold re_NONSPC in Hc; lia|]. intros st Hm. cbn [run fold_left]. unfold step.
  destruct Hc as [Hc| ->]; [rewrite (step_main_ws st c Hm Hc)|rewrite (step_main_start st 0 Hm eq_refl)];
    (split; [left; exact Hm|reflexivity]).
Qed.

Lemma comment_emits body e : forallb (fun c => negb (re_EOL c)) body = true -> re_EOL e = true ->
  emits (37 :: body ++ [e]) [].
Proof.
  intros Hb He. apply emits_from_main; [discriminate|]. intros st Hm. rewrite run_cons, run_app, run_one.
  pose proof (start_reading st 37 MComment [37] Hm eq_refl (fun _ => eq_refl)) as H0.
  destruct (reading_scan _ _ _ _ re_EOL body H0 eq_refl Hb) as (Hf & Hm1 & _). set (x := run (step st 37) body) in *.
  unfold step, tks. rewrite (step_comment_eol x e Hm1 He), (step_main_ws (set_mode MMain x) e eq_refl)
    by (unfold re_EOL, re_NONSPC in *; lia).
  injection Hf as _ Hk. cbn [toks adv set_mode]. rewrite Hk. split; [left|]; reflexivity.
Qed.

Lemma keyword_finishes f st acc d : reading f MKeyword st acc -> re_END_KEYWORD d = true ->
  finishes f st d (keyword_token acc).
Proof.
  intros (<- & Hm & <-) Hd. exists (end_keyword st). split; [split; reflexivity|].
  apply step_again, step_keyword_end; assumption.
Qed.

Lemma keyword_completes st c kw d : lmode st = MMain -> isalpha c = true ->
  forallb (fun x => negb (re_END_KEYWORD x)) kw = true -> re_END_KEYWORD d = true ->
  completes st (c :: kw) d (keyword_token (c :: kw)).
Proof.
  intros Hm Hc Hk Hd. apply completes_intro, keyword_finishes; [|exact Hd]. rewrite run_cons.
  apply (reading_scan _ _ _ [c] re_END_KEYWORD); [|reflexivity|exact Hk].
  apply start_reading; [exact Hm|unfold re_NONSPC, isalpha in *; lia|intros s; apply main_dispatch_alpha, Hc].
Qed.

(* reals: [sign] digits . digits with at least one digit; the token carries the spelling (its value is float()) *)
Lemma float_finishes f st acc d : reading f MFloat st acc -> existsb isdigit acc = true -> re_END_NUMBER d = true ->
  finishes f st d (TReal acc).
Proof.
  intros (<- & Hm & <-) Hp Hd. exists (end_float st). split.
  - unfold end_float, parse_float. rewrite Hp. split; reflexivity.
  - apply step_again, step_float_end; assumption.
Qed.

(* up to the point: a number so far, unless the point comes first *)
Lemma real_prefix st sg d1 : lmode st = MMain -> forallb isdigit d1 = true ->
  reading (apos st, toks st) MFloat (run st ((sign_bytes sg ++ d1) ++ [46])) ((sign_bytes sg ++ d1) ++ [46]).
Proof.
  intros Hm H1. destruct (sign_bytes sg ++ d1) as [|c0 pre0] eqn:E.
  - exact (start_reading st 46 MFloat [46] Hm eq_refl (fun _ => eq_refl)).
  - destruct (sign_digits_head sg d1 H1) as (c & rest & E' & Hc & Hr); [rewrite E; discriminate|].
    rewrite <- E, E', run_app, run_one. destruct (number_prefix st c rest Hm Hc Hr) as (Hf & Hm1 & Hc1).
    set (x := run st (c :: rest)) in *. unfold step. rewrite (step_number_dot x Hm1), <- Hf, <- Hc1. repeat split.
Qed.

Lemma real_completes st sg d1 d2 d : lmode st = MMain -> forallb isdigit d1 = true -> forallb isdigit d2 = true ->
  d1 ++ d2 <> [] -> re_END_NUMBER d = true ->
  completes st (sign_bytes sg ++ d1 ++ 46 :: d2) d (TReal (sign_bytes sg ++ d1 ++ 46 :: d2)).
Proof.
  intros Hm H1 H2 Hne Hd. apply completes_intro, float_finishes; [| |exact Hd].
  - replace (sign_bytes sg ++ d1 ++ 46 :: d2) with (((sign_bytes sg ++ d1) ++ [46]) ++ d2) by (rewrite <- !app_assoc; reflexivity).
    rewrite run_app. apply (reading_scan _ _ _ _ re_END_NUMBER); [apply real_prefix; assumption|reflexivity|apply digits_scan, H2].
  - rewrite !existsb_app. cbn [existsb].
    destruct d1 as [|x d1]; [destruct d2 as [|y d2]; [destruct Hne; reflexivity|]|]; cbn [forallb existsb] in *.
    + apply andb_true_iff in H2. destruct H2 as [-> _]. rewrite !orb_true_r. reflexivity.
    + apply andb_true_iff in H1. destruct H1 as [-> _]. apply orb_true_r.
Qed.

(* tokens that need no delimiter after them *)
Inductive self_tok : token -> list Z -> Prop :=
| st_string : forall ps, seq_ok ANone ps -> self_tok (TStr (flat_map pvalue ps)) (40 :: flat_map render ps ++ [41])
| st_hex : forall ps, Forall hwf ps -> self_tok (TStr (flat_map hvalue ps)) (60 :: flat_map hrender ps ++ [62])
| st_bracket : forall c, c = 91 \/ c = 93 \/ c = 123 \/ c = 125 -> self_tok (TKw [c]) [c]
| st_dopen : self_tok (TKw [60; 60]) [60; 60]
| st_dclose : self_tok (TKw [62; 62]) [62; 62].

(* regular tokens with the class of bytes that may follow them *)
Inductive reg_tok : token -> list Z -> (Z -> Prop) -> Prop :=
| rt_name : forall ps, Forall nwf ps -> reg_tok (TLit (flat_map nvalue ps)) (47 :: flat_map nrender ps) ndelim
| rt_int : forall sg ds, ds <> [] -> forallb isdigit ds = true ->
    reg_tok (TInt (sign_apply sg (digits_val ds))) (sign_bytes sg ++ ds) idelim
| rt_real : forall sg d1 d2, forallb isdigit d1 = true -> forallb isdigit d2 = true -> d1 ++ d2 <> [] ->
    reg_tok (TReal (sign_bytes sg ++ d1 ++ 46 :: d2)) (sign_bytes sg ++ d1 ++ 46 :: d2) (fun d => re_END_NUMBER d = true)
| rt_kw : forall c kw, isalpha c = true -> forallb (fun x => negb (re_END_KEYWORD x)) kw = true ->
    reg_tok (keyword_token (c :: kw)) (c :: kw) (fun d => re_END_KEYWORD d = true).

(* the rest of the input begins with an admissible delimiter (at the end of the input the reader supplies a line feed) *)
Definition followed_by (P : Z -> Prop) (rest : list Z) : Prop := match rest with [] => P 10 | d :: _ => P d end.

(* [spelled ts bytes]: bytes is a spelling of the token sequence ts.  White space, NUL and comments may stand anywhere
   between tokens; a regular token must be followed by one of its delimiters (or end the input), a self-delimiting
   one by anything. *)
Inductive spelled : list token -> list Z -> Prop :=
| sp_nil : spelled [] []
| sp_ws : forall c ts rest, re_NONSPC c = false \/ c = 0 -> spelled ts rest -> spelled ts (c :: rest)
| sp_comment : forall body e ts rest, forallb (fun c => negb (re_EOL c)) body = true -> re_EOL e = true ->
    spelled ts rest -> spelled ts (37 :: body ++ e :: rest)
| sp_self : forall t s ts rest, self_tok t s -> spelled ts rest -> spelled (t :: ts) (s ++ rest)
| sp_reg : forall t s P ts rest, reg_tok t s P -> followed_by P rest -> spelled ts rest -> spelled (t :: ts) (s ++ rest).

Lemma followed_by_head P rest : followed_by P rest -> exists d r, rest ++ [10] = d :: r /\ P d.
Proof. destruct rest as [|d r]; [exists 10, []|exists d, (r ++ [10])]; auto. Qed.

(* the first byte is singled out for [gap_first]: it is never '>' *)
Lemma reg_completes t s P d : reg_tok t s P -> P d ->
  exists c r, s = c :: r /\ c <> 62 /\ forall st, lmode st = MMain -> completes st s d t.
Proof.
  intros [ps Hps|sg ds Hne Hds|sg d1 d2 H1 H2 Hne|c kw Hc Hk] Hd.
  - exists 47, (flat_map nrender ps). split; [reflexivity|]. split; [discriminate|]. intros. apply name_completes; assumption.
  - destruct (sign_digits_head sg ds Hds) as (c & r & E & Hc & _); [destruct sg as [[|]|], ds; discriminate || congruence|].
    exists c, r. split; [exact E|]. split; [unfold isdigit in Hc; lia|]. intros. apply integer_completes; assumption.
  - destruct (sign_bytes sg ++ d1) as [|c r] eqn:E.
    + exists 46, d2. destruct sg as [[|]|], d1; try discriminate. split; [reflexivity|]. split; [discriminate|].
      intros. apply (real_completes _ None []); assumption.
    + destruct (sign_digits_head sg d1 H1) as (c' & r' & E' & Hc & _); [rewrite E; discriminate|].
      exists c', (r' ++ 46 :: d2). split; [rewrite app_assoc, E'; reflexivity|]. split; [unfold isdigit in Hc; lia|].
      intros. apply real_completes; assumption.
  - exists c, kw. split; [reflexivity|]. split; [unfold isalpha in Hc; lia|]. intros. apply keyword_completes; assumption.
Qed.

Lemma reg_reads t s P d rest st : reg_tok t s P -> P d -> gap st ->
  exists st', gap st' /\ tks st' = [t] ++ tks st /\ run st (s ++ d :: rest) = run st' (d :: rest).
Proof.
  intros H Hd G. destruct (reg_completes t s P d H Hd) as (c & r & -> & Hc & Hcomp). cbn [app].
  destruct (gap_first st c (r ++ d :: rest) G Hc) as (st0 & M0 & T0 & R0). rewrite R0, <- T0.
  destruct (Hcomp st0 M0) as (st' & Hcd & R). destruct (completed_emits _ _ _ Hcd) as [G' T'].
  exists st'. split; [exact G'|]. split; [exact T'|exact (R rest)].
Qed.

(* after a hexadecimal string its own '>' is pending, and of '>>' the first '>' then completes
   a '>>' and the second is pending *)
Lemma self_emits t s : self_tok t s -> emits s [t].
Proof.
  intros [ps Hok|ps Hps|c Hc| | ].
  - apply emits_from_main; [discriminate|]. intros st Hm. apply completed_emits, (literal_string_token st ps Hm Hok).
  - apply emits_from_main; [discriminate|]. intros st Hm. destruct (hex_string_token st ps Hm Hps) as [M T].
    split; [right; exact M|]. unfold tks. rewrite T. reflexivity.
  - apply emits_from_main; [lia|]. intros st Hm. cbn [run fold_left]. unfold step.
    rewrite (step_main_start st c Hm) by (unfold re_NONSPC; lia).
    destruct Hc as [ -> | [ -> | [ -> | -> ] ] ]; (split; [left; exact Hm|reflexivity]).
  - apply emits_from_main; [discriminate|]. intros st Hm. cbn [run fold_left]. unfold step.
    rewrite (step_main_start st 60 Hm eq_refl), step_wopen_lt by reflexivity. split; [left|]; reflexivity.
  - intros st [Hm|Hm]; cbn [run fold_left]; unfold step.
    + rewrite (step_main_start st 62 Hm eq_refl), step_wclose_gt by reflexivity. split; [left|]; reflexivity.
    + rewrite (step_wclose_gt st Hm), (step_main_start _ 62) by reflexivity. split; [right|]; reflexivity.
Qed.

(* a spelled token sequence is tokenized into exactly those tokens, from any state between tokens *)
Theorem spelled_tokens : forall ts bytes, spelled ts bytes -> forall st, gap st ->
  tks (run st (bytes ++ [10])) = rev ts ++ tks st.
Proof.
  intros ts bytes H. induction H as [|c ts rest Hc H IH|body e ts rest Hb He H IH|t s ts rest Hs H IH|t s P ts rest Hr Hf H IH];
    intros st G.
  - (* end of input: the line feed the reader supplies *)
    exact (proj2 (ws_emits 10 (or_introl eq_refl) st G)).
  - destruct (ws_emits c Hc st G) as [G1 T1]. cbn [app]. rewrite run_cons, <- run_one, (IH _ G1), T1. reflexivity.
  - destruct (comment_emits body e Hb He st G) as [G1 T1].
    replace ((37 :: body ++ e :: rest) ++ [10]) with ((37 :: body ++ [e]) ++ rest ++ [10])
      by (cbn [app]; rewrite <- !app_assoc; reflexivity).
    rewrite run_app, (IH _ G1), T1. reflexivity.
  - destruct (self_emits t s Hs st G) as [G1 T1]. rewrite <- app_assoc, run_app, (IH _ G1), T1. cbn [rev].
    rewrite <- app_assoc. reflexivity.
  - destruct (followed_by_head P rest Hf) as (d & r & E & Hd). destruct (reg_reads t s P d r st Hr Hd G) as (st' & G' & T' & R').
    rewrite <- app_assoc, E, R', <- E, (IH _ G'), T'. cbn [rev]. rewrite <- app_assoc. reflexivity.
Qed.

Corollary spelled_lex ts bytes : spelled ts bytes -> map snd (lex 0 bytes) = ts.
Proof.
  intros H. unfold lex, tokens_of. rewrite map_rev. fold (tks (run (init 0) (bytes ++ [10]))).
  rewrite (spelled_tokens ts bytes H (init 0) (or_introl eq_refl)). unfold tks. cbn [init toks map].
  rewrite app_nil_r, rev_involutive. reflexivity.
Qed.
