(* C15 proofs (file-system paths): a name that is its own basename has no separator, and such a name joined to a
   directory resolves to a direct child of it. *)
From Coq Require Import ZArith List Bool Lia.
From PdfV Require Import Base.ListX Model.Paths.
Import ListNotations.
Open Scope Z_scope.

Definition no_slash (s : str) : Prop := Forall (fun c => c <> SLASH) s.

Lemma str_eqb_neq a b : a <> b -> str_eqb a b = false.
Proof. intros H. apply not_true_is_false. intros E. apply zs_eqb_eq in E. contradiction. Qed.

(* a name without separator is its own basename; the converse is [basename_fixed_noslash] *)
Lemma basename_go_noslash : forall p acc, no_slash p -> basename_go p acc = rev acc ++ p.
Proof.
  induction p as [|c r IH]; intros acc H; [cbn; rewrite app_nil_r; reflexivity|].
  inversion H as [|? ? Hc Hr]; subst. cbn [basename_go].
  assert (E : c =? SLASH = false) by (apply Z.eqb_neq; exact Hc). rewrite E. rewrite IH by exact Hr.
  cbn [rev]. rewrite <- app_assoc. reflexivity.
Qed.
Lemma basename_go_clean : forall p acc, no_slash acc -> no_slash (basename_go p acc).
Proof.
  induction p as [|c r IH]; intros acc Ha; cbn [basename_go]; [apply Forall_rev, Ha|].
  destruct (Z.eqb_spec c SLASH) as [_|E]; apply IH; constructor; assumption.
Qed.
Theorem basename_fixed_noslash p : str_eqb (basename p) p = true -> no_slash p.
Proof. intros H. apply zs_eqb_eq in H. rewrite <- H. apply basename_go_clean. constructor. Qed.

Lemma split_go_noslash : forall p cur, no_slash p -> split_go p cur = [rev cur ++ p].
Proof.
  induction p as [|c r IH]; intros cur H; [cbn; rewrite app_nil_r; reflexivity|].
  inversion H as [|? ? Hc Hr]; subst. cbn [split_go].
  assert (E : c =? SLASH = false) by (apply Z.eqb_neq; exact Hc). rewrite E. rewrite IH by exact Hr.
  cbn [rev]. rewrite <- app_assoc. reflexivity.
Qed.
Lemma split_go_nonempty : forall p cur, split_go p cur <> [].
Proof. induction p as [|c r IH]; intros cur; cbn [split_go]; [discriminate|]. destruct (c =? SLASH); [discriminate|apply IH]. Qed.

Lemma split_go_app : forall a cur b, split_go (a ++ SLASH :: b) cur = split_go a cur ++ split_go b [].
Proof.
  induction a as [|c r IH]; intros cur b.
  - cbn [app split_go]. rewrite Z.eqb_refl. reflexivity.
  - cbn [app split_go]. destruct (c =? SLASH); [rewrite IH; reflexivity|apply IH].
Qed.

Lemma resolve_app : forall a b st, resolve (a ++ b) st = resolve b (rev (resolve a st)).
Proof.
  induction a as [|c r IH]; intros b st; [cbn [app resolve]; rewrite rev_involutive; reflexivity|].
  cbn [app resolve]. destruct ((match c with [] => true | _ => false end) || str_eqb c DOT); [apply IH|].
  destruct (str_eqb c DOTDOT); apply IH.
Qed.

Lemma normpath_trailing d : normpath (d ++ [SLASH]) = normpath d.
Proof.
  unfold normpath, components. rewrite split_go_app. cbn [split_go rev]. rewrite resolve_app. cbn [resolve orb]. apply rev_involutive.
Qed.

(* a plain file name is one component, and resolution pushes it *)
Lemma resolve_plain f : no_slash f -> f <> [] -> f <> DOT -> f <> DOTDOT ->
  forall st, resolve (split_go f []) st = rev (f :: st).
Proof.
  intros Hf Hne Hdot Hdd st. rewrite split_go_noslash by exact Hf. cbn [rev app resolve].
  destruct f as [|c r]; [congruence|]. cbn [orb]. rewrite (str_eqb_neq _ _ Hdot), (str_eqb_neq _ _ Hdd). reflexivity.
Qed.

(* the empty directory included: os.path.join('', f) = f *)
Theorem join_child d f : no_slash f -> f <> [] -> f <> DOT -> f <> DOTDOT ->
  normpath (join d f) = normpath d ++ [f].
Proof.
  intros Hf Hne Hdot Hdd. pose proof (resolve_plain f Hf Hne Hdot Hdd) as Hres.
  assert (Hfa : is_abs f = false).
  { destruct f as [|c r]; [reflexivity|]. inversion Hf; subst. cbn. apply Z.eqb_neq. assumption. }
  assert (Main : forall d0, normpath (d0 ++ SLASH :: f) = normpath d0 ++ [f]).
  { intros d0. unfold normpath, components. rewrite split_go_app, resolve_app, Hres. cbn [rev]. rewrite rev_involutive. reflexivity. }
  unfold join. rewrite Hfa.
  destruct d as [|c0 d0]; [exact (Hres [])|]. cbn [orb]. rewrite orb_false_r.
  destruct (ends_slash (c0 :: d0)) eqn:Es.
  - unfold ends_slash in Es. destruct (rev (c0 :: d0)) as [|l rl] eqn:Er; [discriminate|]. apply Z.eqb_eq in Es. subst l.
    assert (Hd' : c0 :: d0 = rev rl ++ [SLASH]) by (rewrite <- (rev_involutive (c0 :: d0)), Er; reflexivity).
    rewrite Hd'. rewrite <- app_assoc. cbn [app]. rewrite Main, normpath_trailing. reflexivity.
  - cbn [app]. change (c0 :: d0 ++ SLASH :: f) with ((c0 :: d0) ++ SLASH :: f). apply Main.
Qed.

Lemma pickle_noslash : no_slash s_pickle_gz.
Proof. repeat constructor; discriminate. Qed.

Lemma ends_not_dots (x ext : str) : (3 <= length ext)%nat -> x ++ ext <> [] /\ x ++ ext <> DOT /\ x ++ ext <> DOTDOT.
Proof.
  intros H. assert (L : (3 <= length (x ++ ext))%nat) by (rewrite app_length; lia).
  repeat split; intros E; rewrite E in L; cbn in L; lia.
Qed.

Lemma sanitize_noslash name : no_slash (sanitize name).
Proof.
  unfold sanitize. apply Forall_forall. intros c Hc. apply in_map_iff in Hc. destruct Hc as (x & <- & _).
  destruct ((x =? 0) || (x =? SLASH) || (x =? 92)) eqn:E; [discriminate|].
  apply orb_false_iff in E. destruct E as [E _]. apply orb_false_iff in E. destruct E as [_ E]. apply Z.eqb_neq. exact E.
Qed.

