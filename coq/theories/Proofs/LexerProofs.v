(* The chunk layer of Model/Lexer.v (the mirror of the _parse_* methods working
   on read buffers) computes, for EVERY chunking of the data, the state of the
   byte automaton [run] -- and does so within the stated fuel. *)
From Coq Require Import ZArith List Bool Lia.
From PdfV Require Import Base.ListX Gen.LexClasses Model.Lexer.
Import ListNotations.
Open Scope Z_scope.

Lemma lst_ext a b :
  lmode a = lmode b -> cur a = cur b -> tpos a = tpos b -> paren a = paren b ->
  oct a = oct b -> hexb a = hexb b -> toks a = toks b -> apos a = apos b -> a = b.
Proof. destruct a, b; cbn; intros; subst; reflexivity. Qed.

Local Ltac lst_auto :=
  apply lst_ext; cbn [lmode cur tpos paren oct hexb toks apos set_mode set_cur add_cur set_tpos
                      set_paren set_oct set_hex emit adv end_literal end_lithex end_keyword
                      end_hexstring end_oct len length];
  try reflexivity; try (unfold len; cbn [length]; lia);
  try (rewrite <- ?app_assoc; cbn [app]; reflexivity).

Lemma run_app st a b : run st (a ++ b) = run (run st a) b.
Proof. apply fold_left_app. Qed.

Lemma run_cons st c r : run st (c :: r) = run (step st c) r.
Proof. reflexivity. Qed.

Lemma run_one st c : run st [c] = step st c.
Proof. reflexivity. Qed.

Lemma len_cons c (a : list Z) : len (c :: a) = len a + 1.
Proof. unfold len. cbn [length]. lia. Qed.

Lemma len_nonneg (a : list Z) : 0 <= len a.
Proof. unfold len. lia. Qed.

(* p is the class [span] stops at ([span] itself takes the class it skips) *)
Inductive span_view (p : Z -> bool) (s : list Z) : list Z * list Z -> Prop :=
| span_all : forallb (fun c => negb (p c)) s = true -> span_view p s (s, [])
| span_stop a c r : s = a ++ c :: r -> forallb (fun c => negb (p c)) a = true -> p c = true ->
    span_view p s (a, c :: r).

Lemma spanP p s : span_view p s (span (fun c => negb (p c)) s).
Proof.
  induction s as [|c s IH]; cbn [span]; [constructor; reflexivity|].
  destruct (p c) eqn:Hc; cbn [negb]; [apply (span_stop p _ [] c s); auto|].
  destruct IH as [Ha|a d r -> Ha Hd].
  - constructor. cbn [forallb]. rewrite Hc, Ha. reflexivity.
  - apply (span_stop p _ (c :: a) d r); [reflexivity|cbn [forallb]; rewrite Hc; exact Ha|exact Hd].
Qed.

(* the class of bytes that stop the modes which append bytes to the token *)
Definition scan_class (m : mode) : option (Z -> bool) :=
  match m with
  | MComment => Some re_EOL | MLiteral => Some re_END_LITERAL | MNumber | MFloat => Some re_END_NUMBER
  | MKeyword => Some re_END_KEYWORD | MString => Some re_END_STRING | MHexString => Some re_END_HEX_STRING
  | _ => None
  end.

Lemma step_scan st c p : scan_class (lmode st) = Some p -> p c = false -> step_core st c = add_cur [c] st.
Proof.
  unfold step_core, step_comment, step_literal, step_number, step_float, step_keyword, step_string, step_hexstring.
  destruct (lmode st); intros [= <-] ->; reflexivity.
Qed.

(* One equation for each other branch of [step_core]: its hypotheses are the mode and the outcome of the tests, each
   rewritten as it is introduced.  A byte the chunk layer leaves unread is read again ([step_core] on the right). *)
Local Ltac branch f := unfold step_core; intros ->; unfold f; repeat intros ->; reflexivity.

Lemma step_main_ws st c : lmode st = MMain -> re_NONSPC c = false -> step_core st c = st.
Proof. branch step_main. Qed.
Lemma step_main_start st c : lmode st = MMain -> re_NONSPC c = true ->
  step_core st c = main_dispatch (set_tpos (apos st) st) c.
Proof. branch step_main. Qed.
Lemma step_comment_eol st c : lmode st = MComment -> re_EOL c = true -> step_core st c = step_core (set_mode MMain st) c.
Proof. branch step_comment. Qed.
Lemma step_literal_hash st : lmode st = MLiteral -> step_core st 35 = set_mode MLitHex (set_hex [] st).
Proof. branch step_literal. Qed.
Lemma step_literal_end st c : lmode st = MLiteral -> re_END_LITERAL c = true -> (c =? 35) = false ->
  step_core st c = step_core (end_literal st) c.
Proof. branch step_literal. Qed.
Lemma step_lithex_digit st c : lmode st = MLitHex -> re_HEX c && (len (hexb st) <? 2) = true ->
  step_core st c = set_hex (hexb st ++ [c]) st.
Proof. branch step_lithex. Qed.
Lemma step_lithex_end st c : lmode st = MLitHex -> re_HEX c && (len (hexb st) <? 2) = false ->
  step_core st c = step_core (end_lithex st) c.
Proof. branch step_lithex. Qed.
Lemma step_number_dot st : lmode st = MNumber -> step_core st 46 = set_mode MFloat (add_cur [46] st).
Proof. branch step_number. Qed.
Lemma step_number_end st c : lmode st = MNumber -> re_END_NUMBER c = true -> (c =? 46) = false ->
  step_core st c = step_core (end_number st) c.
Proof. branch step_number. Qed.
Lemma step_float_end st c : lmode st = MFloat -> re_END_NUMBER c = true -> step_core st c = step_core (end_float st) c.
Proof. branch step_float. Qed.
Lemma step_keyword_end st c : lmode st = MKeyword -> re_END_KEYWORD c = true ->
  step_core st c = step_core (end_keyword st) c.
Proof. branch step_keyword. Qed.
Lemma step_hexstring_end st c : lmode st = MHexString -> re_END_HEX_STRING c = true ->
  step_core st c = step_core (end_hexstring st) c.
Proof. branch step_hexstring. Qed.
Lemma step_string_end st c : lmode st = MString -> re_END_STRING c = true -> step_core st c = string_special st c.
Proof. branch step_string. Qed.
Lemma step_string1_digit st c : lmode st = MString1 -> re_OCT_STRING c && (len (oct st) <? 3) = true ->
  step_core st c = set_oct (oct st ++ [c]) st.
Proof. branch step_string1. Qed.
Lemma step_string1_octend st c : lmode st = MString1 -> re_OCT_STRING c && (len (oct st) <? 3) = false ->
  nonempty (oct st) = true -> step_core st c = step_core (end_oct st) c.
Proof. branch step_string1. Qed.
Lemma step_string1_escape st c : lmode st = MString1 -> re_OCT_STRING c && (len (oct st) <? 3) = false ->
  nonempty (oct st) = false -> escape_consumes c = true -> step_core st c = string1_escape st c.
Proof. branch step_string1. Qed.
Lemma step_string1_ignore st c : lmode st = MString1 -> re_OCT_STRING c && (len (oct st) <? 3) = false ->
  nonempty (oct st) = false -> escape_consumes c = false -> step_core st c = step_core (set_mode MString st) c.
Proof. branch step_string1. Qed.
Lemma step_stringcr_lf st : lmode st = MStringCR -> step_core st 10 = set_mode MString st.
Proof. branch step_stringcr. Qed.
Lemma step_stringcr_other st c : lmode st = MStringCR -> (c =? 10) = false ->
  step_core st c = step_core (set_mode MString st) c.
Proof. branch step_stringcr. Qed.
Lemma step_wopen_lt st : lmode st = MWOpen -> step_core st 60 = set_mode MMain (emit (TKw [60; 60]) st).
Proof. branch step_wopen. Qed.
Lemma step_wopen_other st c : lmode st = MWOpen -> (c =? 60) = false ->
  step_core st c = step_core (set_mode MHexString st) c.
Proof. branch step_wopen. Qed.
Lemma step_wclose_gt st : lmode st = MWClose -> step_core st 62 = set_mode MMain (emit (TKw [62; 62]) st).
Proof. branch step_wclose. Qed.
Lemma step_wclose_other st c : lmode st = MWClose -> (c =? 62) = false ->
  step_core st c = step_core (set_mode MMain st) c.
Proof. branch step_wclose. Qed.

Lemma step_again st st1 c : step_core st c = step_core st1 c -> step st c = step st1 c.
Proof. unfold step. intros ->. reflexivity. Qed.

Lemma run_accum p : forall a st, scan_class (lmode st) = Some p -> forallb (fun c => negb (p c)) a = true ->
  run st a = adv (len a) (add_cur a st).
Proof.
  induction a as [|c a IH]; intros st Hp Ha.
  - cbn [run fold_left]. lst_auto. symmetry; apply app_nil_r.
  - cbn [forallb] in Ha. apply andb_true_iff in Ha. destruct Ha as [Hc%negb_true_iff Ha].
    rewrite run_cons. unfold step. rewrite (step_scan st c p Hp Hc), IH, len_cons by assumption. lst_auto.
Qed.

Lemma run_skip_main : forall a st, lmode st = MMain ->
  forallb (fun c => negb (re_NONSPC c)) a = true -> run st a = adv (len a) st.
Proof.
  induction a as [|c a IH]; intros st Hm Ha.
  - cbn [run fold_left]. lst_auto.
  - cbn [forallb] in Ha. apply andb_true_iff in Ha. destruct Ha as [Hc%negb_true_iff Ha].
    rewrite run_cons. unfold step. rewrite (step_main_ws st c Hm Hc), IH, len_cons by assumption. lst_auto.
Qed.

(* Every function of the byte layer is a tree of tests on the byte, the mode, the token being built, the parenthesis
   depth and the octal/hex digits, with compositions of the field setters below at the leaves.  Hence a relation
   between states that implies agreement on the fields read and is preserved by each setter is preserved by every
   function.  Advancing the position, shifting the absolute offset and the position invariants of LexerInv.v are
   instances: [R a b := a = g b] for g = [adv k] or [shift k], which turns each conclusion into an equation to rewrite
   with (R is found by unification from [adv_read]/[shift_read]), and a unary invariant P as [fun a b => a = b /\ P a].
   [set_tpos] and [adv] are not among the setters: they are the two places where positions enter, and the instances
   differ exactly there ([step_main_rel] asks for [set_tpos (apos _)] separately, [adv] is applied outside). *)
Inductive setter : (lst -> lst) -> Prop :=
| S_mode m : setter (set_mode m) | S_cur x : setter (set_cur x) | S_paren p : setter (set_paren p)
| S_oct o : setter (set_oct o) | S_hex h : setter (set_hex h) | S_emit t : setter (emit t).

Definition same_read (a b : lst) : Prop :=
  lmode a = lmode b /\ cur a = cur b /\ paren a = paren b /\ oct a = oct b /\ hexb a = hexb b.

Local Ltac split_ifs :=
  repeat match goal with
         | |- context [if ?b then _ else _] => destruct b
         | |- context [match ?o with Some _ => _ | None => _ end] => destruct o
         end.

Section Related.
  Variable R : lst -> lst -> Prop.
  Hypothesis R_read : forall a b, R a b -> same_read a b.
  Hypothesis R_set : forall f, setter f -> forall a b, R a b -> R (f a) (f b).
  Local Hint Constructors setter : core.

  (* unfold [f], make the tests of both sides equal, split on them, close the leaves with the hypotheses *)
  Ltac walk f :=
    let H := fresh in
    intros H; unfold f; destruct (R_read _ _ H) as (Em & Ec & Ep & Eo & Eh); rewrite ?Em, ?Ec, ?Ep, ?Eo, ?Eh;
    split_ifs; auto 8.

  Lemma add_cur_rel x a b : R a b -> R (add_cur x a) (add_cur x b).
  Proof. walk add_cur. Qed.
  Local Hint Resolve add_cur_rel : core.
  Lemma main_dispatch_rel c a b : R a b -> R (main_dispatch a c) (main_dispatch b c).
  Proof. walk main_dispatch. Qed.
  Lemma end_literal_rel a b : R a b -> R (end_literal a) (end_literal b).
  Proof. walk end_literal. Qed.
  Lemma end_lithex_rel a b : R a b -> R (end_lithex a) (end_lithex b).
  Proof. walk end_lithex. Qed.
  Lemma end_number_rel a b : R a b -> R (end_number a) (end_number b).
  Proof. walk end_number. Qed.
  Lemma end_float_rel a b : R a b -> R (end_float a) (end_float b).
  Proof. walk end_float. Qed.
  Lemma end_keyword_rel a b : R a b -> R (end_keyword a) (end_keyword b).
  Proof. walk end_keyword. Qed.
  Lemma end_hexstring_rel a b : R a b -> R (end_hexstring a) (end_hexstring b).
  Proof. walk end_hexstring. Qed.
  Lemma end_oct_rel a b : R a b -> R (end_oct a) (end_oct b).
  Proof. walk end_oct. Qed.
  Lemma string_special_rel c a b : R a b -> R (string_special a c) (string_special b c).
  Proof. walk string_special; cbn [cur set_paren]; rewrite ?Ec; auto. Qed.
  Lemma string1_escape_rel c a b : R a b -> R (string1_escape a c) (string1_escape b c).
  Proof. walk string1_escape. Qed.
  Local Hint Resolve main_dispatch_rel end_literal_rel end_lithex_rel end_number_rel end_float_rel end_keyword_rel
    end_hexstring_rel end_oct_rel string_special_rel string1_escape_rel : core.

  Section Byte.
    Variable c : Z.
    Hypothesis R_main : forall a b, R a b -> R (step_main a c) (step_main b c).
    Local Hint Resolve R_main : core.

    Lemma step_literal_rel a b : R a b -> R (step_literal a c) (step_literal b c).
    Proof. walk step_literal. Qed.
    Lemma step_string_rel a b : R a b -> R (step_string a c) (step_string b c).
    Proof. walk step_string. Qed.
    Lemma step_hexstring_rel a b : R a b -> R (step_hexstring a c) (step_hexstring b c).
    Proof. walk step_hexstring. Qed.
    Local Hint Resolve step_literal_rel step_string_rel step_hexstring_rel : core.

    Lemma step_core_rel a b : R a b -> R (step_core a c) (step_core b c).
    Proof.
      intros H. unfold step_core. destruct (R_read _ _ H) as (-> & _).
      destruct (lmode b); revert H;
        [ | walk step_comment | | walk step_lithex | walk step_number | walk step_float | walk step_keyword
          | | walk step_string1 | walk step_stringcr | walk step_wopen | walk step_wclose | ]; auto.
    Qed.
  End Byte.

  Lemma step_main_rel c : (forall a b, R a b -> R (set_tpos (apos a) a) (set_tpos (apos b) b)) ->
    forall a b, R a b -> R (step_main a c) (step_main b c).
  Proof. intros Ht a b H. unfold step_main. destruct (re_NONSPC c); auto. Qed.
End Related.

Section Kept.
  Variable P : lst -> Prop.
  Hypothesis P_set : forall f, setter f -> forall s, P s -> P (f s).
  Let R a b := a = b /\ P a.
  Let R_read a b : R a b -> same_read a b.
  Proof. intros [-> _]. repeat split. Qed.
  Let R_set f : setter f -> forall a b, R a b -> R (f a) (f b).
  Proof. intros Hf a b [-> Ha]. split; [reflexivity|apply P_set; assumption]. Qed.

  Lemma main_dispatch_keeps c s : P s -> P (main_dispatch s c).
  Proof. intros H. exact (proj2 (main_dispatch_rel R R_read R_set c s s (conj eq_refl H))). Qed.
  Lemma step_core_keeps c : (forall s, P s -> P (step_main s c)) -> forall s, P s -> P (step_core s c).
  Proof.
    intros Hm s H. refine (proj2 (step_core_rel R R_read R_set c _ s s (conj eq_refl H))).
    intros a b [-> Ha]. split; [reflexivity|apply Hm; assumption].
  Qed.
End Kept.

Lemma adv_read k a b : a = adv k b -> same_read a b.
Proof. intros ->. repeat split. Qed.
Lemma adv_set k f : setter f -> forall a b, a = adv k b -> f a = adv k (f b).
Proof. intros [] a b ->; reflexivity. Qed.

Lemma main_dispatch_adv k st c : main_dispatch (adv k st) c = adv k (main_dispatch st c).
Proof. exact (main_dispatch_rel _ (adv_read k) (adv_set k) c _ _ eq_refl). Qed.
Lemma end_number_adv k st : end_number (adv k st) = adv k (end_number st).
Proof. exact (end_number_rel _ (adv_read k) (adv_set k) _ _ eq_refl). Qed.
Lemma end_float_adv k st : end_float (adv k st) = adv k (end_float st).
Proof. exact (end_float_rel _ (adv_read k) (adv_set k) _ _ eq_refl). Qed.
Lemma end_lithex_adv k st : end_lithex (adv k st) = adv k (end_lithex st).
Proof. exact (end_lithex_rel _ (adv_read k) (adv_set k) _ _ eq_refl). Qed.
Lemma string_special_adv k st c : string_special (adv k st) c = adv k (string_special st c).
Proof. exact (string_special_rel _ (adv_read k) (adv_set k) c _ _ eq_refl). Qed.
Lemma string1_escape_adv k st c : string1_escape (adv k st) c = adv k (string1_escape st c).
Proof. exact (string1_escape_rel _ (adv_read k) (adv_set k) c _ _ eq_refl). Qed.
Lemma adv_adv a b st : adv a (adv b st) = adv (b + a) st.
Proof. lst_auto. Qed.
Lemma adv_0 st : adv 0 st = st.
Proof. lst_auto. Qed.

(* A mode from which a scanner can hand a byte back unread has a higher rank than the mode that then reads it; MLitHex
   and MWOpen hand back to MLiteral and MHexString, which can hand back once more.  The measure of the nexttoken loop
   is 3 * (bytes left) + rank: a call that consumes lowers the first term by at least 3 and raises the rank by at most
   2, a call that hands back lowers the rank.  Hence the fuel 3n + 3 of [feed_fuel]. *)
Definition rank (m : mode) : nat :=
  match m with
  | MMain | MString => 0
  | MLitHex | MWOpen => 2
  | _ => 1
  end.

Lemma rank_le2 m : (rank m <= 2)%nat.
Proof. destruct m; cbn; lia. Qed.

(* one scanner call read n bytes of the buffer s and left st': the automaton's run is unchanged, and if nothing was
   read the rank went down *)
Definition ok1 (st : lst) (s : list Z) (n : nat) (st' : lst) : Prop :=
  run st s = run st' (skipn n s) /\
  ((0 < n)%nat \/ (rank (lmode st') < rank (lmode st))%nat).

Lemma ok1_intro st s a b n st' : s = a ++ b -> length a = n -> run st s = run st' b ->
  a <> [] \/ (rank (lmode st') < rank (lmode st))%nat -> ok1 st s n st'.
Proof.
  intros -> <- Hr Hd. split; [rewrite (skipn_app_len a b _ eq_refl); exact Hr|].
  destruct Hd as [Hd|Hd]; [left; destruct a; [congruence|cbn; lia]|right; exact Hd].
Qed.

Definition scanner_ok (scan : lst -> list Z -> nat * lst) (m : mode) : Prop :=
  forall st s, s <> [] -> lmode st = m -> let (n, st') := scan st s in ok1 st s n (adv (Z.of_nat n) st').

Lemma consume_ok st c r st' : step_core st c = st' -> ok1 st (c :: r) 1 (adv 1 st').
Proof. intros <-. apply (ok1_intro _ _ [c] r); try reflexivity. left. discriminate. Qed.

Lemma handback_ok st c r st1 : step_core st c = step_core st1 c -> (rank (lmode st1) < rank (lmode st))%nat ->
  ok1 st (c :: r) 0 (adv 0 st1).
Proof.
  intros H Hr. apply (ok1_intro _ _ [] (c :: r)); [reflexivity|reflexivity| |right; exact Hr].
  rewrite adv_0, !run_cons. f_equal. apply step_again, H.
Qed.

Lemma p_lithex_ok : scanner_ok p_lithex MLitHex.
Proof.
  intros st [|c r] Hs Hm; [congruence|]. unfold p_lithex. destruct (re_HEX c && (len (hexb st) <? 2)) eqn:Hc.
  - apply consume_ok, step_lithex_digit; assumption.
  - apply handback_ok; [apply step_lithex_end; assumption|rewrite Hm; cbn; lia].
Qed.

Lemma p_string1_ok : scanner_ok p_string1 MString1.
Proof.
  intros st [|c r] Hs Hm; [congruence|]. unfold p_string1.
  destruct (re_OCT_STRING c && (len (oct st) <? 3)) eqn:Hc; [apply consume_ok, step_string1_digit; assumption|].
  destruct (nonempty (oct st)) eqn:Ho; [apply handback_ok; [apply step_string1_octend; assumption|rewrite Hm; cbn; lia]|].
  destruct (escape_consumes c) eqn:He; [apply consume_ok, step_string1_escape; assumption|].
  apply handback_ok; [apply step_string1_ignore; assumption|rewrite Hm; cbn; lia].
Qed.

(* p_stringcr, p_wopen and p_wclose unfold to this shape: h is the byte looked for, g what it does, f the state the
   other bytes are handed back to *)
Lemma lookahead_ok m h g f : (forall st, lmode st = m -> step_core st h = g st) ->
  (forall st c, lmode st = m -> (c =? h) = false -> step_core st c = step_core (f st) c) ->
  (forall st, (rank (lmode (f st)) < rank m)%nat) ->
  scanner_ok (fun st s => match s with [] => (O, st) | c :: _ => if c =? h then (1%nat, g st) else (O, f st) end) m.
Proof.
  intros Hg Hf Hr st [|c r] Hs Hm; [congruence|]. destruct (Z.eqb_spec c h) as [->|Hc%Z.eqb_neq].
  - apply consume_ok, Hg, Hm.
  - apply handback_ok; [apply Hf; assumption|rewrite Hm; apply Hr].
Qed.

Lemma p_stringcr_ok : scanner_ok p_stringcr MStringCR.
Proof. exact (lookahead_ok _ 10 _ (set_mode MString) step_stringcr_lf step_stringcr_other (fun _ => le_n 1)). Qed.
Lemma p_wopen_ok : scanner_ok p_wopen MWOpen.
Proof. exact (lookahead_ok _ 60 _ (set_mode MHexString) step_wopen_lt step_wopen_other (fun _ => le_n 2)). Qed.
Lemma p_wclose_ok : scanner_ok p_wclose MWClose.
Proof. exact (lookahead_ok _ 62 _ (set_mode MMain) step_wclose_gt step_wclose_other (fun _ => le_n 1)). Qed.

Section Scanning.
  Variables (st : lst) (p : Z -> bool).
  Hypothesis Hp : scan_class (lmode st) = Some p.

  Lemma scan_all_ok s : s <> [] -> forallb (fun c => negb (p c)) s = true ->
    ok1 st s (length s) (adv (len s) (add_cur s st)).
  Proof.
    intros Hs Ha. apply (ok1_intro _ _ s []); [symmetry; apply app_nil_r|reflexivity|apply (run_accum p), Ha; exact Hp|left; exact Hs].
  Qed.

  Variables (a : list Z) (c : Z) (r : list Z).
  Hypothesis Ha : forallb (fun c => negb (p c)) a = true.

  Lemma scan_unread_ok endf : (forall k x, endf (adv k x) = adv k (endf x)) ->
    (forall x, lmode x = lmode st -> step_core x c = step_core (endf x) c) ->
    (rank (lmode (endf (add_cur a st))) < rank (lmode st))%nat ->
    ok1 st (a ++ c :: r) (length a) (adv (len a) (endf (add_cur a st))).
  Proof.
    intros Hcomm Hstep Hrank. apply (ok1_intro _ _ a (c :: r)); [reflexivity|reflexivity| |right; exact Hrank].
    rewrite run_app, (run_accum p a st Hp Ha), <- Hcomm, !run_cons. f_equal. apply step_again, Hstep. reflexivity.
  Qed.

  Lemma scan_consumed_ok g : (forall k x, g (adv k x) = adv k (g x)) ->
    (forall x, lmode x = lmode st -> step_core x c = g x) ->
    ok1 st (a ++ c :: r) (S (length a)) (adv (Z.of_nat (S (length a))) (g (add_cur a st))).
  Proof.
    intros Hcomm Hstep. apply (ok1_intro _ _ (a ++ [c]) r); [rewrite <- app_assoc; reflexivity|apply last_length| |left; destruct a; discriminate].
    rewrite run_app, (run_accum p a st Hp Ha), run_cons. f_equal. unfold step.
    rewrite Hstep, Hcomm, adv_adv by reflexivity. f_equal. unfold len. lia.
  Qed.
End Scanning.

(* p_comment, p_float, p_keyword and p_hexstring unfold to this shape *)
Lemma unread_ok m p endf : scan_class m = Some p -> (forall k x, endf (adv k x) = adv k (endf x)) ->
  (forall x c, lmode x = m -> p c = true -> step_core x c = step_core (endf x) c) ->
  (forall x, (rank (lmode (endf x)) < rank m)%nat) ->
  scanner_ok (fun st s => let (a, r) := span (fun c => negb (p c)) s in
                          match r with [] => (length s, add_cur s st) | _ :: _ => (length a, endf (add_cur a st)) end) m.
Proof.
  intros Hp Hcomm Hstep Hr st s Hs Hm. rewrite <- Hm in Hp.
  destruct (spanP p s) as [Ha|a c r -> Ha Hc]; [exact (scan_all_ok st _ Hp s Hs Ha)|].
  apply (scan_unread_ok st _ Hp a c r Ha endf Hcomm); [|rewrite Hm; apply Hr].
  intros x Hx. apply Hstep; congruence.
Qed.

Lemma p_comment_ok : scanner_ok p_comment MComment.
Proof. exact (unread_ok MComment re_EOL (set_mode MMain) eq_refl (fun _ _ => eq_refl) step_comment_eol (fun _ => le_n 1)). Qed.
(* [end_float] commutes with [adv] by a lemma, the others by computation: a match on the parsed token blocks conversion *)
Lemma p_float_ok : scanner_ok p_float MFloat.
Proof. exact (unread_ok MFloat re_END_NUMBER end_float eq_refl end_float_adv step_float_end (fun _ => le_n 1)). Qed.
Lemma p_keyword_ok : scanner_ok p_keyword MKeyword.
Proof. exact (unread_ok MKeyword re_END_KEYWORD end_keyword eq_refl (fun _ _ => eq_refl) step_keyword_end (fun _ => le_n 1)). Qed.
Lemma p_hexstring_ok : scanner_ok p_hexstring MHexString.
Proof. exact (unread_ok MHexString re_END_HEX_STRING end_hexstring eq_refl (fun _ _ => eq_refl) step_hexstring_end (fun _ => le_n 1)). Qed.

Lemma p_literal_ok : scanner_ok p_literal MLiteral.
Proof.
  intros st s Hs Hm. assert (Hp : scan_class (lmode st) = Some re_END_LITERAL) by (rewrite Hm; reflexivity).
  unfold p_literal. destruct (spanP re_END_LITERAL s) as [Ha|a c r -> Ha Hc]; [exact (scan_all_ok st _ Hp s Hs Ha)|].
  destruct (Z.eqb_spec c 35) as [->|Hh%Z.eqb_neq].
  - apply (scan_consumed_ok st _ Hp a 35 r Ha (fun x => set_mode MLitHex (set_hex [] x))); [reflexivity|].
    intros x Hx. apply step_literal_hash. congruence.
  - apply (scan_unread_ok st _ Hp a c r Ha end_literal); [reflexivity| |rewrite Hm; cbn; lia].
    intros x Hx. apply step_literal_end; congruence.
Qed.

Lemma p_number_ok : scanner_ok p_number MNumber.
Proof.
  intros st s Hs Hm. assert (Hp : scan_class (lmode st) = Some re_END_NUMBER) by (rewrite Hm; reflexivity).
  unfold p_number. destruct (spanP re_END_NUMBER s) as [Ha|a c r -> Ha Hc]; [exact (scan_all_ok st _ Hp s Hs Ha)|].
  destruct (Z.eqb_spec c 46) as [->|Hd%Z.eqb_neq].
  - apply (scan_consumed_ok st _ Hp a 46 r Ha (fun x => set_mode MFloat (add_cur [46] x))); [reflexivity|].
    intros x Hx. apply step_number_dot. congruence.
  - apply (scan_unread_ok st _ Hp a c r Ha end_number); [intros; apply end_number_adv| |rewrite Hm; cbn; lia].
    intros x Hx. apply step_number_end; congruence.
Qed.

Lemma p_string_ok : scanner_ok p_string MString.
Proof.
  intros st s Hs Hm. assert (Hp : scan_class (lmode st) = Some re_END_STRING) by (rewrite Hm; reflexivity).
  unfold p_string. destruct (spanP re_END_STRING s) as [Ha|a c r -> Ha Hc]; [exact (scan_all_ok st _ Hp s Hs Ha)|].
  apply (scan_consumed_ok st _ Hp a c r Ha (fun x => string_special x c)); [intros; apply string_special_adv|].
  intros x Hx. apply step_string_end; congruence.
Qed.

Lemma p_main_ok : scanner_ok p_main MMain.
Proof.
  intros st s Hs Hm. unfold p_main. destruct (spanP re_NONSPC s) as [Ha|a c r -> Ha Hc].
  - apply (ok1_intro _ _ s []); [symmetry; apply app_nil_r|reflexivity|apply run_skip_main; assumption|left; exact Hs].
  - apply (ok1_intro _ _ (a ++ [c]) r); [rewrite <- app_assoc; reflexivity|apply last_length| |left; destruct a; discriminate].
    rewrite run_app, (run_skip_main a st Hm Ha), run_cons. f_equal. unfold step.
    rewrite (step_main_start (adv (len a) st) c Hm Hc).
    change (set_tpos (apos (adv (len a) st)) (adv (len a) st)) with (adv (len a) (set_tpos (apos st + len a) st)).
    rewrite main_dispatch_adv, adv_adv. f_equal. unfold len. lia.
Qed.

Lemma parse1_ok st s : s <> [] ->
  let (n, st') := parse1 st s in ok1 st s n st'.
Proof.
  intros Hs. unfold parse1.
  destruct (lmode st) eqn:Hm;
    [ generalize (p_main_ok st s Hs Hm) | generalize (p_comment_ok st s Hs Hm) | generalize (p_literal_ok st s Hs Hm)
    | generalize (p_lithex_ok st s Hs Hm) | generalize (p_number_ok st s Hs Hm) | generalize (p_float_ok st s Hs Hm)
    | generalize (p_keyword_ok st s Hs Hm) | generalize (p_string_ok st s Hs Hm) | generalize (p_string1_ok st s Hs Hm)
    | generalize (p_stringcr_ok st s Hs Hm) | generalize (p_wopen_ok st s Hs Hm) | generalize (p_wclose_ok st s Hs Hm)
    | generalize (p_hexstring_ok st s Hs Hm) ];
    match goal with |- (let (_, _) := ?r in _) -> _ => destruct r end; exact (fun H => H).
Qed.

Lemma feed_ok : forall fuel st s,
  (3 * length s + rank (lmode st) < fuel)%nat -> feed fuel st s = Some (run st s).
Proof.
  induction fuel as [|f IH]; intros st s Hf; [lia|].
  destruct s as [|c r]; [reflexivity|].
  cbn [feed]. pose proof (parse1_ok st (c :: r) ltac:(discriminate)) as H.
  destruct (parse1 st (c :: r)) as [n st']. destruct H as (Hrun & Hmeas).
  rewrite Hrun. apply IH. rewrite skipn_length. cbn [length] in *. pose proof (rank_le2 (lmode st')). lia.
Qed.

Lemma feed_chunks_ok : forall cs st, feed_chunks st cs = Some (run st (concat cs)).
Proof.
  induction cs as [|c cs IH]; intros st; [reflexivity|].
  cbn [feed_chunks concat]. rewrite feed_ok.
  - rewrite IH, run_app. reflexivity.
  - unfold feed_fuel. pose proof (rank_le2 (lmode st)). lia.
Qed.

Lemma chunks_concat : forall fuel b data, (0 < b)%nat -> (length data <= fuel)%nat ->
  concat (chunks fuel b data) = data.
Proof.
  induction fuel as [|f IH]; intros b data Hb Hl.
  - destruct data; [reflexivity|cbn in Hl; lia].
  - destruct data as [|c r]; [reflexivity|].
    cbn [chunks concat]. rewrite IH; [apply firstn_skipn|exact Hb|].
    rewrite skipn_length. cbn [length] in *. lia.
Qed.

(* for every buffer size the chunk layer terminates (never runs out
   of fuel) and yields exactly the automaton's tokens *)
Theorem tokenize_lex : forall b pos data, (0 < b)%nat -> tokenize b pos data = Some (lex pos data).
Proof.
  intros b pos data Hb. unfold tokenize, lex, flush.
  rewrite feed_chunks_ok, chunks_concat by (auto; lia).
  rewrite feed_ok.
  - rewrite run_app. reflexivity.
  - unfold feed_fuel. cbn [length]. pose proof (rank_le2 (lmode (run (init pos) data))). lia.
Qed.
