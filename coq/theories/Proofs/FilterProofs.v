(* C03 proofs: each decoder inverts every encoding in its encoder relation. *)
From Coq Require Import ZArith List Bool Lia.
From PdfV Require Import Base.ListX Base.Num Gen.FilterGen Model.Filters.
Import ListNotations.
Open Scope Z_scope.

Definition byte (c : Z) : Prop := 0 <= c < 256.

Inductive rlrun := RLit (bs : list Z) | RRep (b : Z) (n : nat).
Definition run_ok (r : rlrun) : Prop :=
  match r with
  | RLit bs => (1 <= length bs <= 128)%nat
  | RRep b n => (2 <= n <= 128)%nat
  end.
Definition run_enc (r : rlrun) : list Z :=
  match r with
  | RLit bs => (Z.of_nat (length bs) - 1) :: bs
  | RRep b n => (257 - Z.of_nat n) :: [b]
  end.
Definition run_den (r : rlrun) : list Z :=
  match r with RLit bs => bs | RRep b n => repeat b n end.

Definition rl_tail (t : list Z) : Prop := t = [] \/ exists junk, t = 128 :: junk.

Lemma rl_step f r rest : run_ok r ->
  rldecode_go (S f) (run_enc r ++ rest) = fbind (rldecode_go f rest) (fun t => FOk (run_den r ++ t)).
Proof.
  destruct r as [bs|b n]; cbn [run_ok run_enc run_den app rldecode_go]; intros Hr.
  - replace (_ =? 128) with false by (symmetry; apply Z.eqb_neq; lia).
    replace (_ <? 128) with true by (symmetry; apply Z.ltb_lt; lia).
    replace (Z.to_nat (Z.of_nat (length bs) - 1 + 1)) with (length bs) by lia.
    replace (_ <? _)%nat with false by (symmetry; apply Nat.ltb_ge; rewrite app_length; lia).
    rewrite firstn_app_len, skipn_app_len by reflexivity. reflexivity.
  - replace (_ =? 128) with false by (symmetry; apply Z.eqb_neq; lia).
    replace (_ <? 128) with false by (symmetry; apply Z.ltb_ge; lia).
    replace (Z.to_nat (257 - (257 - Z.of_nat n))) with n by lia. reflexivity.
Qed.

Lemma rl_runs : forall runs tail fuel,
  Forall run_ok runs -> rl_tail tail ->
  (length (flat_map run_enc runs ++ tail) < fuel)%nat ->
  rldecode_go fuel (flat_map run_enc runs ++ tail) = FOk (flat_map run_den runs).
Proof.
  induction runs as [|r runs IH]; intros tail [|f] Hok Htail Hf; try (cbn [length] in Hf; lia).
  - destruct Htail as [->|[junk ->]]; reflexivity.
  - cbn [flat_map] in *. rewrite <- app_assoc in *. rewrite app_length in Hf.
    rewrite (rl_step f r _ (Forall_inv Hok)), IH; [reflexivity|exact (Forall_inv_tail Hok)|exact Htail|].
    destruct r; cbn [run_enc length] in Hf; lia.
Qed.

Definition hexdigit_of (h v : Z) : Prop := is_hex h = true /\ hexv h = v.

(* text (before the terminator) spelling the bytes: pairs of hex digits, either case, with
   white space anywhere *)
Inductive HexSp : list Z -> list Z -> Prop :=
| HexNil : forall ws, forallb is_ws ws = true -> HexSp [] ws
| HexByte : forall b d ws1 h1 ws2 h2 rest,
    forallb is_ws ws1 = true -> forallb is_ws ws2 = true ->
    hexdigit_of h1 (b / 16) -> hexdigit_of h2 (b mod 16) -> byte b ->
    HexSp d rest -> HexSp (b :: d) (ws1 ++ [h1] ++ ws2 ++ [h2] ++ rest).

Lemma hex_not_ws h : is_hex h = true -> is_ws h = false.
Proof.
  intros H. destruct (is_ws h) eqn:E; [|reflexivity]. exfalso.
  unfold is_hex, is_ws in *.
  rewrite !orb_true_iff, !andb_true_iff, !Z.leb_le in H.
  rewrite !orb_true_iff, !andb_true_iff, !Z.leb_le, Z.eqb_eq in E. lia.
Qed.

Lemma hex_not_gt h : is_hex h = true -> (h =? 62) = false.
Proof.
  unfold is_hex. intros H. apply Z.eqb_neq. intros ->. cbn in H. discriminate.
Qed.

Definition pair_digits (ps : list (Z * Z)) : list Z := flat_map (fun p => [fst p; snd p]) ps.
Definition pair_ok (p : Z * Z) : Prop := is_hex (fst p) = true /\ is_hex (snd p) = true.
Definition pair_val (p : Z * Z) : Z := 16 * hexv (fst p) + hexv (snd p).

Lemma unhexlify_app ps t : Forall pair_ok ps ->
  unhexlify (pair_digits ps ++ t) = fbind (unhexlify t) (fun r => FOk (map pair_val ps ++ r)).
Proof.
  induction 1 as [|[a b] r [Ha Hb] _ IH]; [cbn [pair_digits flat_map app]; destruct (unhexlify t); reflexivity|].
  cbn [pair_digits flat_map app fst snd unhexlify] in *. rewrite Ha, Hb. cbn [andb].
  unfold pair_digits in IH. rewrite IH. destruct (unhexlify t); reflexivity.
Qed.

Lemma hexsp_filtered d t : HexSp d t ->
  exists ps, filter (fun c => negb (is_ws c)) t = pair_digits ps /\ Forall pair_ok ps /\ map pair_val ps = d.
Proof.
  induction 1 as [ws Hws|b d ws1 h1 ws2 h2 rest H1 H2 [Hh1 Hv1] [Hh2 Hv2] Hb Hsp IH].
  - exists []. rewrite filter_negb_none by exact Hws. repeat split. constructor.
  - destruct IH as (ps & Ef & Hall & Hd).
    exists ((h1, h2) :: ps). rewrite !filter_app, (filter_negb_none _ ws1 H1), (filter_negb_none _ ws2 H2).
    cbn [filter app]. rewrite (hex_not_ws h1 Hh1), (hex_not_ws h2 Hh2). cbn [negb]. rewrite Ef.
    repeat split.
    + constructor; [split; assumption|exact Hall].
    + cbn [map]. rewrite Hd. f_equal. unfold pair_val. cbn [fst snd]. rewrite Hv1, Hv2.
      unfold byte in Hb. pose proof (Z.div_mod b 16 ltac:(lia)). lia.
Qed.

Lemma pair_digits_hex ps : Forall pair_ok ps -> Forall (fun h => is_hex h = true) (pair_digits ps).
Proof.
  induction 1 as [|[a b] r [Ha Hb] Hr IH]; [constructor|].
  cbn. constructor; [exact Ha|]. constructor; [exact Hb|exact IH].
Qed.
Lemma pair_digits_even ps : Nat.even (length (pair_digits ps)) = true.
Proof. induction ps as [|p r IH]; [reflexivity|]. cbn [pair_digits flat_map app length]. exact IH. Qed.

Lemma before_gt_app hs t : Forall (fun h => is_hex h = true) hs ->
  before_gt (hs ++ t) = (hs ++ fst (before_gt t), snd (before_gt t)).
Proof.
  induction 1 as [|h r Hh _ IH]; cbn [app before_gt]; [destruct (before_gt t); reflexivity|].
  rewrite (hex_not_gt h Hh), IH. reflexivity.
Qed.

(* any case, white space anywhere, with '>' (then anything) or without *)
Theorem ahx_roundtrip : forall d t, HexSp d t ->
  asciihexdecode t = FOk d /\ forall junk, asciihexdecode (t ++ 62 :: junk) = FOk d.
Proof.
  intros d t H. destruct (hexsp_filtered d t H) as (ps & Ef & Hall & <-).
  assert (Hu : unhexlify (pair_digits ps) = FOk (map pair_val ps)).
  { rewrite <- (app_nil_r (pair_digits ps)), (unhexlify_app ps [] Hall). cbn [unhexlify fbind]. rewrite app_nil_r. reflexivity. }
  unfold asciihexdecode. split; [|intros junk; rewrite filter_app]; rewrite Ef.
  - rewrite <- (app_nil_r (pair_digits ps)), (before_gt_app _ [] (pair_digits_hex ps Hall)), !app_nil_r. exact Hu.
  - change (filter _ (62 :: junk)) with (62 :: filter (fun c => negb (is_ws c)) junk).
    rewrite (before_gt_app _ _ (pair_digits_hex ps Hall)). cbn [before_gt Z.eqb Pos.eqb fst snd]. rewrite app_nil_r.
    unfold Nat.odd. rewrite pair_digits_even. exact Hu.
Qed.

(* the odd case: the final byte's low nibble is 0 and its digit is omitted before '>' *)
Theorem ahx_odd_final : forall d t b h1 ws junk,
  HexSp d t -> byte b -> b mod 16 = 0 -> hexdigit_of h1 (b / 16) -> forallb is_ws ws = true ->
  asciihexdecode (t ++ [h1] ++ ws ++ 62 :: junk) = FOk (d ++ [b]).
Proof.
  intros d t b h1 ws junk H Hb Hlow [Hh1 Hv1] Hws.
  destruct (hexsp_filtered d t H) as (ps & Ef & Hall & <-).
  unfold asciihexdecode. rewrite !filter_app, Ef, (filter_negb_none _ ws Hws). cbn [filter app].
  rewrite (hex_not_ws h1 Hh1). change (is_ws 62) with false. cbn [negb app].
  rewrite (before_gt_app _ _ (pair_digits_hex ps Hall)). cbn [before_gt fst snd]. rewrite (hex_not_gt h1 Hh1).
  cbn [before_gt Z.eqb Pos.eqb fst snd andb].
  replace (Nat.odd (length (pair_digits ps ++ [h1]))) with true
    by (rewrite app_length, Nat.add_1_r, Nat.odd_succ; symmetry; apply pair_digits_even).
  rewrite <- app_assoc, (unhexlify_app ps _ Hall). cbn [app unhexlify]. rewrite Hh1.
  change (is_hex 48) with true. change (hexv 48) with 0. cbn [andb fbind]. do 3 f_equal. rewrite Hv1. unfold byte in Hb. pose proof (Z_div_mod_eq_full b 16). lia.
Qed.

Definition pred_of (ft : Z) (l u ul : Z) : Z :=
  if ft =? 1 then l else if ft =? 2 then u else if ft =? 3 then (l + u) / 2
  else if ft =? 4 then paeth_predictor ZOps l u ul else 0.

(* PNG row filter (the encoder side, PNG specification section 6): position j of the row *)
Fixpoint enc_from (ft bpp : Z) (raw_all above suffix : list Z) (j : Z) : list Z :=
  match suffix with
  | [] => []
  | x :: r =>
      let l := if j - bpp <? 0 then 0 else nth (Z.to_nat (j - bpp)) raw_all 0 in
      let u := nth (Z.to_nat j) above 0 in
      let ul := if j - bpp <? 0 then 0 else nth (Z.to_nat (j - bpp)) above 0 in
      ((x - pred_of ft l u ul) mod 256) :: enc_from ft bpp raw_all above r (j + 1)
  end.
Definition enc_row (ft bpp : Z) (raw above : list Z) : list Z := enc_from ft bpp raw above raw 0.

Lemma enc_from_length ft bpp raw_all above : forall suffix j,
  length (enc_from ft bpp raw_all above suffix j) = length suffix.
Proof. induction suffix as [|x r IH]; intros j; cbn; [reflexivity|]. rewrite IH. reflexivity. Qed.

Lemma unfilter_byte x p : byte x -> ((x - p) mod 256 + p) mod 256 = x.
Proof.
  intros Hx. rewrite Z.add_mod_idemp_l by lia. replace (x - p + p) with x by lia.
  apply Z.mod_small. exact Hx.
Qed.

Lemma nthd_in (l : list Z) k : 0 <= k < Z.of_nat (length l) -> nthd l k = Some (nth (Z.to_nat k) l 0).
Proof.
  intros Hk. unfold nthd. replace (k <? 0) with false by (symmetry; apply Z.ltb_ge; lia). apply nth_error_nth'. lia.
Qed.
Lemma nthd_prefix (prefix suffix : list Z) k : 0 <= k < Z.of_nat (length prefix) ->
  nthd prefix k = Some (nth (Z.to_nat k) (prefix ++ suffix) 0).
Proof. intros Hk. rewrite app_nth1 by lia. apply nthd_in, Hk. Qed.

(* filter types 1 (Sub), 3 (Average), 4 (Paeth): the left-to-right loop rebuilds the row; at position j the
   decoder finds in what it has rebuilt, and in the row above, the very values the encoder used *)
Lemma png_row_ok ft bpp above raw_all : (ft = 1 \/ ft = 3 \/ ft = 4) -> 1 <= bpp -> length above = length raw_all ->
  forall suffix prefix j, raw_all = prefix ++ suffix -> j = Z.of_nat (length prefix) -> Forall byte suffix ->
    png_row ft bpp (enc_from ft bpp raw_all above suffix j) above prefix j = FOk raw_all.
Proof.
  intros Hft Hbpp Hlen. induction suffix as [|x r IH]; intros prefix j Hall Hj Hb.
  - rewrite Hall, app_nil_r. reflexivity.
  - inversion Hb as [|? ? Hx Hr]; subst x0 l. cbn [enc_from png_row].
    assert (Hja : 0 <= j < Z.of_nat (length above)) by (rewrite Hlen, Hall, app_length; cbn [length]; lia).
    assert (El : (if j - bpp <? 0 then Some 0 else nthd prefix (j - bpp))
                 = Some (if j - bpp <? 0 then 0 else nth (Z.to_nat (j - bpp)) raw_all 0)).
    { destruct (j - bpp <? 0) eqn:E; [reflexivity|]. apply Z.ltb_ge in E. rewrite Hall. apply nthd_prefix. lia. }
    assert (Eu : (if j - bpp <? 0 then Some 0 else nthd above (j - bpp))
                 = Some (if j - bpp <? 0 then 0 else nth (Z.to_nat (j - bpp)) above 0)).
    { destruct (j - bpp <? 0) eqn:E; [reflexivity|]. apply Z.ltb_ge in E. apply nthd_in. lia. }
    rewrite El, Eu, (nthd_in above j) by lia.
    assert (Hnext : forall v, v = x ->
              png_row ft bpp (enc_from ft bpp raw_all above r (j + 1)) above (prefix ++ [v]) (j + 1) = FOk raw_all).
    { intros v ->. apply IH; [rewrite <- app_assoc; exact Hall|rewrite app_length; cbn [length]; lia|exact Hr]. }
    destruct Hft as [ -> | [ -> | -> ] ]; cbn [Z.eqb Pos.eqb option_map pred_of]; apply Hnext, unfilter_byte, Hx.
Qed.

(* filter type 2 (Up) pairs position j + i of the row with the i-th byte of what is left of the row above *)
Lemma png_up_ok bpp raw_all above : forall suffix j, Forall byte suffix -> (j + length suffix <= length above)%nat ->
  png_up (enc_from 2 bpp raw_all above suffix (Z.of_nat j)) (skipn j above) = suffix.
Proof.
  induction suffix as [|x r IH]; intros j Hb Hl; [reflexivity|]. inversion Hb as [|? ? Hx Hr]; subst. cbn [length] in Hl.
  rewrite (skipn_nth_error above j (nth j above 0)) by (apply nth_error_nth'; lia).
  cbn [enc_from png_up pred_of Z.eqb Pos.eqb]. rewrite Nat2Z.id, unfilter_byte by exact Hx. f_equal.
  replace (Z.of_nat j + 1) with (Z.of_nat (S j)) by lia. apply IH; [exact Hr|lia].
Qed.

Lemma enc0_id bpp raw_all above : forall suffix j, Forall byte suffix ->
  enc_from 0 bpp raw_all above suffix j = suffix.
Proof.
  induction suffix as [|x r IH]; intros j Hb; [reflexivity|]. inversion Hb as [|? ? Hx Hr]; subst.
  cbn [enc_from pred_of Z.eqb]. rewrite Z.sub_0_r, Z.mod_small by exact Hx. f_equal. apply IH. exact Hr.
Qed.

(* rows: (filter type, raw bytes) *)
Fixpoint png_encode (bpp : Z) (rows : list (Z * list Z)) (above : list Z) : list Z :=
  match rows with
  | [] => []
  | (ft, raw) :: r => ft :: enc_row ft bpp raw above ++ png_encode bpp r raw
  end.

Definition row_ok (n : nat) (row : Z * list Z) : Prop :=
  0 <= fst row <= 4 /\ length (snd row) = n /\ Forall byte (snd row).

(* what png_lines does with one encoded row, for each of the five filter types *)
Lemma png_line_ok ft bpp raw above : 1 <= bpp -> 0 <= ft <= 4 -> length above = length raw -> Forall byte raw ->
  (if ft =? 0 then FOk (enc_row ft bpp raw above)
   else if ft =? 2 then FOk (png_up (enc_row ft bpp raw above) above)
   else if (ft =? 1) || (ft =? 3) || (ft =? 4) then png_row ft bpp (enc_row ft bpp raw above) above [] 0
   else FErr EValue) = FOk raw.
Proof.
  intros Hbpp Hft Hlen Hb. unfold enc_row.
  assert (Hc : ft = 0 \/ ft = 2 \/ ft = 1 \/ ft = 3 \/ ft = 4) by lia.
  destruct Hc as [ -> | [ -> | Hc ] ]; cbn [Z.eqb Pos.eqb].
  - rewrite enc0_id by exact Hb. reflexivity.
  - f_equal. apply (png_up_ok bpp raw above raw 0 Hb). cbn [Nat.add]. lia.
  - replace ((ft =? 1) || (ft =? 3) || (ft =? 4)) with true by (destruct Hc as [ -> | [ -> | -> ] ]; reflexivity).
    replace (ft =? 0) with false by (symmetry; apply Z.eqb_neq; lia).
    replace (ft =? 2) with false by (symmetry; apply Z.eqb_neq; lia).
    apply (png_row_ok ft bpp above raw Hc Hbpp Hlen raw [] 0); [reflexivity|reflexivity|exact Hb].
Qed.

Lemma png_lines_ok bpp n : 1 <= bpp -> forall rows above fuel,
  Forall (row_ok n) rows -> length above = n ->
  (length (png_encode bpp rows above) < fuel)%nat ->
  png_lines fuel n bpp (png_encode bpp rows above) above = FOk (concat (map snd rows)).
Proof.
  intros Hbpp. induction rows as [|[ft raw] rows IH]; intros above fuel Hok Ha Hf.
  - destruct fuel; [cbn in Hf; lia|]. reflexivity.
  - pose proof (Forall_inv Hok) as (Hft & Hlen & Hb). pose proof (Forall_inv_tail Hok) as Hrs.
    cbn [fst snd] in *.
    destruct fuel as [|f]; [lia|]. cbn [png_encode png_lines].
    assert (Hel : length (enc_row ft bpp raw above) = n) by (unfold enc_row; rewrite enc_from_length; exact Hlen).
    rewrite !(firstn_app_len _ _ n Hel), (skipn_app_len _ _ n Hel).
    rewrite (png_line_ok ft bpp raw above Hbpp Hft ltac:(lia) Hb). cbn [fbind]. rewrite IH; [reflexivity|exact Hrs|exact Hlen|].
    cbn [png_encode length] in Hf. rewrite app_length in Hf. lia.
Qed.

(* TIFF predictor 2: horizontal differencing per component *)
Fixpoint tiff_enc_from (bpp : Z) (raw_all suffix : list Z) (i : Z) : list Z :=
  match suffix with
  | [] => []
  | x :: r => (if bpp <=? i then (x - nth (Z.to_nat (i - bpp)) raw_all 0) mod 256 else x)
              :: tiff_enc_from bpp raw_all r (i + 1)
  end.
Definition tiff_enc_row (bpp : Z) (raw : list Z) : list Z := tiff_enc_from bpp raw raw 0.

Lemma tiff_enc_length bpp raw_all : forall suffix i, length (tiff_enc_from bpp raw_all suffix i) = length suffix.
Proof. induction suffix as [|x r IH]; intros i; cbn; [reflexivity|]. rewrite IH. reflexivity. Qed.

Lemma tiff_row_ok bpp raw_all : 1 <= bpp -> forall suffix prefix i,
  raw_all = prefix ++ suffix -> i = Z.of_nat (length prefix) -> Forall byte suffix ->
  tiff_row bpp (tiff_enc_from bpp raw_all suffix i) prefix i = FOk raw_all.
Proof.
  intros Hbpp. induction suffix as [|x r IH]; intros prefix i Hall Hi Hb.
  - rewrite Hall, app_nil_r. reflexivity.
  - inversion Hb as [|? ? Hx Hr]; subst x0 l. cbn [tiff_enc_from tiff_row].
    assert (Hnext : tiff_row bpp (tiff_enc_from bpp raw_all r (i + 1)) (prefix ++ [x]) (i + 1) = FOk raw_all).
    { apply IH; [rewrite <- app_assoc; exact Hall|rewrite app_length; cbn [length]; lia|exact Hr]. }
    destruct (bpp <=? i) eqn:E; [|exact Hnext].
    apply Z.leb_le in E. rewrite (nthd_prefix prefix (x :: r) (i - bpp)), <- Hall, unfilter_byte by (lia || exact Hx).
    exact Hnext.
Qed.

Lemma tiff_lines_ok bpp n : 1 <= bpp -> (0 < n)%nat -> forall rows fuel,
  Forall (fun raw => length raw = n /\ Forall byte raw) rows ->
  (length (flat_map (tiff_enc_row bpp) rows) < fuel)%nat ->
  tiff_lines fuel n bpp (flat_map (tiff_enc_row bpp) rows) = FOk (concat rows).
Proof.
  intros Hbpp Hn. induction rows as [|raw rows IH]; intros fuel Hok Hf.
  - destruct fuel; [cbn in Hf; lia|]. reflexivity.
  - pose proof (Forall_inv Hok) as [Hlen Hb]. pose proof (Forall_inv_tail Hok) as Hrs.
    destruct fuel as [|f]; [lia|].
    cbn [flat_map tiff_lines].
    assert (Hel : length (tiff_enc_row bpp raw) = n) by (unfold tiff_enc_row; rewrite tiff_enc_length; exact Hlen).
    destruct (tiff_enc_row bpp raw ++ flat_map (tiff_enc_row bpp) rows) as [|e0 erest] eqn:Ed.
    { exfalso. destruct raw; [cbn in Hlen; lia|]. cbn in Ed. discriminate. }
    rewrite <- Ed.
    assert (E : (length (tiff_enc_row bpp raw ++ flat_map (tiff_enc_row bpp) rows) <? n)%nat = false).
    { apply Nat.ltb_ge. rewrite app_length. lia. }
    rewrite E. rewrite (firstn_app_len _ _ n Hel), (skipn_app_len _ _ n Hel).
    unfold tiff_enc_row at 1. rewrite (tiff_row_ok bpp raw Hbpp raw [] 0 eq_refl eq_refl Hb). cbn [fbind app].
    rewrite IH; [reflexivity|exact Hrs|]. cbn [flat_map] in Hf. rewrite app_length in Hf. lia.
Qed.

(* if every stage inverts its encoder, so does the chain (decode order = reverse of encode order) *)
Section Chains.
  Variable inflate : list Z -> fres.
  Definition stage_inverts (st : fkind * option predparm) (enc : list Z -> list Z) : Prop :=
    forall x, fbind (decode1 inflate (fst st) (enc x)) (apply_pred (snd st)) = FOk x.

  Fixpoint encode_chain (encs : list (list Z -> list Z)) (x : list Z) : list Z :=
    match encs with [] => x | e :: r => e (encode_chain r x) end.

  Theorem chain_roundtrip : forall stages encs x,
    Forall2 stage_inverts stages encs ->
    decode_chain inflate stages (encode_chain encs x) = FOk x.
  Proof.
    induction 1 as [|[k p] e stages encs Hs Hr IH]; [reflexivity|].
    cbn [decode_chain encode_chain]. specialize (Hs (encode_chain encs x)). cbn [fst snd] in Hs.
    destruct (decode1 inflate k (e (encode_chain encs x))) as [d1|err]; cbn [fbind] in *; [|discriminate].
    rewrite Hs. cbn [fbind]. exact IH.
  Qed.
End Chains.
