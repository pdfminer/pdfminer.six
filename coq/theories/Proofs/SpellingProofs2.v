(* C01: byte spellings of hexadecimal strings, names and integers read back as the value (on the byte automaton that
   C14 proves equal to the chunked parser for every buffer size). *)
From Coq Require Import ZArith List Bool Lia.
From PdfV Require Import Base.ListX Gen.LexClasses Model.Lexer Proofs.LexerProofs Proofs.SpellingProofs.
Import ListNotations.
Open Scope Z_scope.

Lemma hex_not_spc c : re_HEX c = true -> re_SPC c = false.
Proof. unfold re_HEX, re_SPC. lia. Qed.
Lemma hex_not_end c : re_HEX c = true -> re_END_HEX_STRING c = false.
Proof. unfold re_HEX, re_END_HEX_STRING. lia. Qed.
Lemma spc_not_end c : re_SPC c = true -> re_END_HEX_STRING c = false.
Proof. unfold re_SPC, re_END_HEX_STRING. lia. Qed.

(* one white-space byte, or one byte written as two hex digits (either case) with white space between them; an odd
   number of digits is not in the family: pdfminer deviates from the standard there (known finding) *)
Inductive hpiece := HWs (c : Z) | HByte (h1 h2 : Z) (mid : list Z).
Definition hrender (p : hpiece) : list Z := match p with HWs c => [c] | HByte h1 h2 mid => h1 :: mid ++ [h2] end.
Definition hvalue (p : hpiece) : list Z := match p with HWs _ => [] | HByte h1 h2 _ => [16 * hexval h1 + hexval h2] end.
Definition hwf (p : hpiece) : Prop :=
  match p with
  | HWs c => re_SPC c = true
  | HByte h1 h2 mid => re_HEX h1 = true /\ re_HEX h2 = true /\ forallb re_SPC mid = true
  end.
Definition hdigits (p : hpiece) : list Z := match p with HWs _ => [] | HByte h1 h2 _ => [h1; h2] end.

Lemma filter_hrender ps : Forall hwf ps -> filter (fun c => negb (re_SPC c)) (flat_map hrender ps) = flat_map hdigits ps.
Proof.
  induction ps as [|p ps IH]; intros H; [reflexivity|]. inversion H as [|? ? Hp Hps]; subst.
  cbn [flat_map]. rewrite filter_app, IH by exact Hps. f_equal.
  destruct p as [c|h1 h2 mid]; cbn [hrender hdigits hwf] in *.
  - cbn [filter]. rewrite Hp. reflexivity.
  - destruct Hp as (H1 & H2 & Hm). cbn [filter]. rewrite (hex_not_spc h1 H1). cbn [negb].
    rewrite filter_app, (filter_negb_none _ mid Hm). cbn [filter app]. rewrite (hex_not_spc h2 H2). reflexivity.
Qed.
Lemma hexpairs_digits : forall ps fuel, (length (flat_map hdigits ps) < fuel)%nat ->
  hexpairs fuel (flat_map hdigits ps) = flat_map hvalue ps.
Proof.
  induction ps as [|p ps IH]; intros fuel Hf; [destruct fuel; reflexivity|].
  destruct p as [c|h1 h2 mid]; cbn [flat_map hdigits hvalue app length] in *; [apply IH, Hf|].
  destruct fuel as [|fuel]; [lia|]. cbn [hexpairs]. f_equal. apply IH. lia.
Qed.
Lemma hexdecode_spelling ps : Forall hwf ps -> hexdecode (flat_map hrender ps) = flat_map hvalue ps.
Proof. intros H. unfold hexdecode. rewrite (filter_hrender ps H). apply hexpairs_digits. lia. Qed.
Lemma hrender_not_end ps : Forall hwf ps -> forallb (fun c => negb (re_END_HEX_STRING c)) (flat_map hrender ps) = true.
Proof.
  induction ps as [|p ps IH]; intros H; [reflexivity|]. inversion H as [|? ? Hp Hps]; subst.
  cbn [flat_map]. rewrite forallb_app, IH, andb_true_r by exact Hps.
  destruct p as [c|h1 h2 mid]; cbn [hrender hwf forallb] in *; [rewrite (spc_not_end c Hp); reflexivity|].
  destruct Hp as (H1 & H2 & Hm). rewrite forallb_app, (hex_not_end h1 H1). cbn [forallb]. rewrite (hex_not_end h2 H2).
  rewrite (forallb_impl _ _ mid (fun x Hx => f_equal negb (spc_not_end x Hx)) Hm). reflexivity.
Qed.

(* The closing '>' ends the token and is read again from the main state, where it may still become '>>': the run ends
   in MWClose, not in MMain. *)
Lemma hexstring_run st body : lmode st = MMain -> forallb (fun c => negb (re_END_HEX_STRING c)) body = true ->
  let fin := run st (60 :: body ++ [62]) in
  lmode fin = MWClose /\ toks fin = (apos st, TStr (hexdecode body)) :: toks st.
Proof.
  intros Hm Hb. cbv zeta. rewrite run_cons.
  destruct (start_reading st 60 MWOpen [] Hm eq_refl (fun _ => eq_refl)) as (Hf0 & Hm0 & Hc0).
  set (s0 := step st 60) in *. set (x := set_mode MHexString s0).
  assert (Hx : reading (apos st, toks st) MHexString x []) by (repeat split; assumption).
  (* the byte after '<' is not another '<', so it is read in the hexadecimal-string state *)
  assert (E : run s0 (body ++ [62]) = run x (body ++ [62])).
  { assert (H : exists c r, body ++ [62] = c :: r /\ (c =? 60) = false).
    { destruct body as [|c body]; [exists 62, []; auto|]. exists c, (body ++ [62]). split; [reflexivity|].
      cbn [forallb] in Hb. unfold re_END_HEX_STRING in Hb. lia. }
    destruct H as (c & r & -> & Hc). rewrite !run_cons. f_equal. apply step_again, step_wopen_other; assumption. }
  rewrite E, run_app. destruct (reading_scan _ _ x [] _ body Hx eq_refl Hb) as (Hf & Hm1 & Hc1).
  injection Hf as Ht Hk. cbn [run fold_left]. unfold step.
  rewrite (step_hexstring_end _ 62 Hm1 eq_refl), (step_main_start (end_hexstring (run x body)) 62 eq_refl eq_refl).
  cbn. rewrite Ht, Hk, Hc1. auto.
Qed.

Theorem hex_string_token st ps : lmode st = MMain -> Forall hwf ps ->
  let fin := run st (60 :: flat_map hrender ps ++ [62]) in
  lmode fin = MWClose /\ toks fin = (apos st, TStr (flat_map hvalue ps)) :: toks st.
Proof.
  intros Hm Hps. rewrite <- (hexdecode_spelling ps Hps). apply hexstring_run; [exact Hm|apply hrender_not_end; exact Hps].
Qed.

Definition hexdigit (n : Z) : Z := if n <? 10 then 48 + n else 87 + n.
Lemma hexdigit_ok n : 0 <= n < 16 -> re_HEX (hexdigit n) = true /\ hexval (hexdigit n) = n.
Proof.
  intros Hn. unfold hexdigit, hexval. destruct (Z.ltb_spec n 10).
  - replace (isdigit (48 + n)) with true by (unfold isdigit; lia). unfold re_HEX. lia.
  - replace (isdigit (87 + n)) with false by (unfold isdigit; lia).
    replace ((97 <=? 87 + n) && (87 + n <=? 102)) with true by lia. unfold re_HEX. lia.
Qed.
Lemma byte_has_hex b : 0 <= b < 256 ->
  exists h1 h2, re_HEX h1 = true /\ re_HEX h2 = true /\ 16 * hexval h1 + hexval h2 = b.
Proof.
  intros Hb. destruct (hexdigit_ok (b / 16)) as [H1 E1]; [Z.div_mod_to_equations; lia|].
  destruct (hexdigit_ok (b mod 16)) as [H2 E2]; [Z.div_mod_to_equations; lia|].
  exists (hexdigit (b / 16)), (hexdigit (b mod 16)). rewrite E1, E2. repeat split; try assumption.
  Z.div_mod_to_equations. lia.
Qed.

Lemma spell_bytes {P} (wf : P -> Prop) (val : P -> list Z) :
  (forall b, 0 <= b < 256 -> exists p, wf p /\ val p = [b]) ->
  forall v, Forall (fun b => 0 <= b < 256) v -> exists ps, Forall wf ps /\ flat_map val ps = v.
Proof.
  intros H v Hv. induction Hv as [|b v Hb _ (ps & Hw & Hval)]; [exists []; auto|].
  destruct (H b Hb) as (p & Hp & Ep). exists (p :: ps). split; [constructor; assumption|].
  cbn [flat_map]. rewrite Ep, Hval. reflexivity.
Qed.

Inductive npiece := NRaw (c : Z) | NHex (h1 h2 : Z).
Definition nrender (p : npiece) : list Z := match p with NRaw c => [c] | NHex h1 h2 => [35; h1; h2] end.
Definition nvalue (p : npiece) : list Z := match p with NRaw c => [c] | NHex h1 h2 => [16 * hexval h1 + hexval h2] end.
Definition nwf (p : npiece) : Prop :=
  match p with NRaw c => re_END_LITERAL c = false | NHex h1 h2 => re_HEX h1 = true /\ re_HEX h2 = true end.

Lemma hexnum2 h1 h2 : hexnum [h1; h2] = 16 * hexval h1 + hexval h2.
Proof. unfold hexnum. cbn [fold_left]. lia. Qed.
Lemma hex_is_not_hash c : re_HEX c = true -> re_END_LITERAL c = false.
Proof. unfold re_HEX, re_END_LITERAL. lia. Qed.

Definition LHex (f : frame) (st : lst) (acc hs : list Z) : Prop :=
  reading f MLitHex st acc /\ hexb st = hs.

Lemma l_hash f st acc : reading f MLiteral st acc -> LHex f (step st 35) acc [].
Proof. intros (<- & Hm & <-). unfold step. rewrite (step_literal_hash st Hm). repeat split. Qed.
Lemma h_digit f st acc hs c : LHex f st acc hs -> (length hs < 2)%nat -> re_HEX c = true -> LHex f (step st c) acc (hs ++ [c]).
Proof.
  intros ((<- & Hm & <-) & <-) Hl Hx. unfold step.
  rewrite step_lithex_digit by (assumption || (rewrite Hx; unfold len; lia)). repeat split. exact Hm.
Qed.

(* the reader's state when v has been spelled so far: the value of a #xx just read is not yet appended *)
Inductive npend := NNone | NPend (h1 h2 : Z).
Definition NPending (f : frame) (st : lst) (a : npend) (v : list Z) : Prop :=
  match a with
  | NNone => reading f MLiteral st v
  | NPend h1 h2 => exists acc, LHex f st acc [h1; h2] /\ v = acc ++ [16 * hexval h1 + hexval h2]
  end.
Definition nafter (p : npiece) : npend := match p with NRaw _ => NNone | NHex h1 h2 => NPend h1 h2 end.

(* after two digits any byte settles the escape: it is read in the name state, with the value appended *)
Lemma nsettle f st a v c : NPending f st a v -> exists st0, reading f MLiteral st0 v /\ step st c = step st0 c.
Proof.
  destruct a as [|h1 h2]; cbn [NPending]; [exists st; auto|].
  intros (acc & ((<- & Hm & <-) & Hh) & ->). exists (end_lithex st). split.
  - unfold end_lithex. rewrite Hh, <- hexnum2. repeat split.
  - apply step_again, step_lithex_end; [exact Hm|]. rewrite Hh. apply andb_false_r.
Qed.

Lemma npiece_norm f st v p : reading f MLiteral st v -> nwf p ->
  NPending f (run st (nrender p)) (nafter p) (v ++ nvalue p).
Proof.
  intros (<- & Hm & <-) Hwf. destruct p as [c|h1 h2]; cbn [nrender nvalue nwf nafter NPending run fold_left] in *.
  - unfold step. rewrite (step_scan st c re_END_LITERAL (f_equal scan_class Hm) Hwf). repeat split. exact Hm.
  - destruct Hwf as [H1 H2]. exists (cur st). split; [|reflexivity].
    apply (h_digit _ _ _ [h1]); [apply (h_digit _ _ _ []); [apply l_hash; repeat split; exact Hm|cbn; lia|exact H1]|cbn; lia|exact H2].
Qed.

Lemma npiece_run f st a v p : NPending f st a v -> nwf p ->
  NPending f (run st (nrender p)) (nafter p) (v ++ nvalue p).
Proof.
  intros HI Hwf. assert (Hr : nrender p = hd 0 (nrender p) :: tl (nrender p)) by (destruct p; reflexivity).
  destruct (nsettle f st a v (hd 0 (nrender p)) HI) as (st0 & HR & E).
  rewrite Hr, run_cons, E, <- run_cons, <- Hr. apply npiece_norm; assumption.
Qed.

Lemma npieces_run f : forall ps st a v, NPending f st a v -> Forall nwf ps ->
  exists a', NPending f (run st (flat_map nrender ps)) a' (v ++ flat_map nvalue ps).
Proof.
  induction ps as [|p ps IH]; intros st a v HI Hok.
  - exists a. rewrite app_nil_r. exact HI.
  - inversion Hok as [|? ? Hp Hps]; subst. cbn [flat_map]. rewrite run_app, app_assoc.
    exact (IH _ _ _ (npiece_run f st a v p HI Hp) Hps).
Qed.

(* the name is complete at a delimiter d (any END_LITERAL byte but '#') *)
Definition ndelim (d : Z) : Prop := re_END_LITERAL d = true /\ d <> 35.

Lemma literal_finishes f st acc d : reading f MLiteral st acc -> ndelim d -> finishes f st d (TLit acc).
Proof.
  intros (<- & Hm & <-) [Hd H35%Z.eqb_neq]. exists (end_literal st). split; [split; reflexivity|].
  apply step_again, step_literal_end; assumption.
Qed.

(* /pieces followed by a delimiter: exactly the name token is added (at the offset of the solidus), and the delimiter is
   then read between tokens *)
Lemma name_completes st ps d : lmode st = MMain -> Forall nwf ps -> ndelim d ->
  completes st (47 :: flat_map nrender ps) d (TLit (flat_map nvalue ps)).
Proof.
  intros Hm Hps Hd. apply completes_intro. rewrite run_cons.
  pose proof (start_reading st 47 MLiteral [] Hm eq_refl (fun _ => eq_refl)) as H0.
  destruct (npieces_run _ ps _ NNone _ H0 Hps) as (a' & HI). destruct (nsettle _ _ _ _ d HI) as (st0 & HR & E).
  destruct (literal_finishes _ _ _ d HR Hd) as (st' & Hc & Hs). exists st'. split; [exact Hc|]. rewrite E. exact Hs.
Qed.

(* every byte string is the value of a name spelling (all bytes as #xx) *)
Theorem every_name_has_a_spelling v : Forall (fun b => 0 <= b < 256) v ->
  exists ps, Forall nwf ps /\ flat_map nvalue ps = v.
Proof.
  apply spell_bytes. intros b Hb. destruct (byte_has_hex b Hb) as (h1 & h2 & H1 & H2 & E).
  exists (NHex h1 h2). cbn [nwf nvalue]. rewrite E. auto.
Qed.

Lemma digits_val_snoc ds d : digits_val (ds ++ [d]) = 10 * digits_val ds + (d - 48).
Proof. unfold digits_val. rewrite fold_left_app. reflexivity. Qed.
Lemma digits_scan ds : forallb isdigit ds = true -> forallb (fun c => negb (re_END_NUMBER c)) ds = true.
Proof. apply forallb_impl. unfold isdigit, re_END_NUMBER. lia. Qed.

(* the sign as written: Some true is '-', Some false is '+', None is no sign *)
Definition sign_bytes (s : option bool) : list Z := match s with None => [] | Some true => [45] | Some false => [43] end.
Definition sign_apply (s : option bool) (n : Z) : Z := match s with Some true => - n | _ => n end.

Lemma parse_int_spelling s ds : ds <> [] -> forallb isdigit ds = true ->
  parse_int (sign_bytes s ++ ds) = Some (sign_apply s (digits_val ds)).
Proof.
  intros Hne Hd. destruct s as [[|]|]; cbn [sign_bytes app sign_apply].
  - unfold parse_int. cbn. rewrite Hd. destruct ds; [congruence|reflexivity].
  - unfold parse_int. cbn. rewrite Hd. destruct ds; [congruence|reflexivity].
  - destruct ds as [|c ds]; [congruence|]. unfold parse_int. rewrite Hd.
    assert (E : (c =? 43) = false /\ (c =? 45) = false) by (cbn [forallb] in Hd; unfold isdigit in Hd; lia).
    destruct E as [-> ->]. reflexivity.
Qed.

Lemma sign_digits_head sg ds : forallb isdigit ds = true -> sign_bytes sg ++ ds <> [] ->
  exists c rest, sign_bytes sg ++ ds = c :: rest /\ (c =? 45) || (c =? 43) || isdigit c = true /\
                 forallb isdigit rest = true.
Proof.
  intros Hd Hne. destruct sg as [[|]|]; [exists 45, ds; auto|exists 43, ds; auto|].
  destruct ds as [|x ds]; [destruct Hne; reflexivity|]. cbn [forallb] in Hd. apply andb_true_iff in Hd. destruct Hd as [Hx Hd].
  exists x, ds. rewrite Hx, orb_true_r. auto.
Qed.

Lemma number_prefix st c rest : lmode st = MMain -> (c =? 45) || (c =? 43) || isdigit c = true ->
  forallb isdigit rest = true -> reading (apos st, toks st) MNumber (run st (c :: rest)) (c :: rest).
Proof.
  intros Hm Hc Hr. rewrite run_cons. apply (reading_scan _ _ _ [c] re_END_NUMBER); [|reflexivity|apply digits_scan, Hr].
  apply start_reading; [exact Hm|unfold re_NONSPC, isdigit in *; lia|intros s; apply main_dispatch_number, Hc].
Qed.

Definition idelim (d : Z) : Prop := re_END_NUMBER d = true /\ d <> 46.

Lemma number_finishes f st acc z d : reading f MNumber st acc -> parse_int acc = Some z -> idelim d ->
  finishes f st d (TInt z).
Proof.
  intros (<- & Hm & <-) Hp [Hd H46%Z.eqb_neq]. exists (end_number st). split.
  - unfold end_number. rewrite Hp. split; reflexivity.
  - apply step_again, step_number_end; assumption.
Qed.

Lemma integer_completes st sg ds d : lmode st = MMain -> ds <> [] -> forallb isdigit ds = true -> idelim d ->
  completes st (sign_bytes sg ++ ds) d (TInt (sign_apply sg (digits_val ds))).
Proof.
  intros Hm Hne Hds Hd. apply completes_intro.
  destruct (sign_digits_head sg ds Hds) as (c & rest & E & Hc & Hr); [destruct sg as [[|]|], ds; discriminate || congruence|].
  apply (number_finishes _ _ (sign_bytes sg ++ ds)); [rewrite E; apply number_prefix; assumption| |exact Hd].
  apply parse_int_spelling; assumption.
Qed.

Lemma nat_has_digits : forall n : nat, exists ds, ds <> [] /\ forallb isdigit ds = true /\ digits_val ds = Z.of_nat n.
Proof.
  intros n. induction n as [n IH] using lt_wf_ind.
  destruct (Nat.lt_ge_cases n 10) as [Hs|Hl].
  - exists [48 + Z.of_nat n]. split; [discriminate|]. split; [unfold isdigit; cbn [forallb]; lia|].
    unfold digits_val. cbn [fold_left]. lia.
  - destruct (IH (n / 10)%nat) as (ds & Hne & Hd & Hv); [apply Nat.div_lt; lia|].
    exists (ds ++ [48 + Z.of_nat (n mod 10)]). split; [destruct ds; discriminate|]. split.
    + rewrite forallb_app, Hd. cbn [forallb]. pose proof (Nat.mod_upper_bound n 10). unfold isdigit. lia.
    + rewrite digits_val_snoc, Hv. pose proof (Nat.div_mod_eq n 10). lia.
Qed.
Theorem every_integer_has_a_spelling z : exists s ds, ds <> [] /\ forallb isdigit ds = true /\ sign_apply s (digits_val ds) = z.
Proof.
  destruct (Z_lt_le_dec z 0) as [Hn|Hp].
  - destruct (nat_has_digits (Z.to_nat (- z))) as (ds & H1 & H2 & H3). exists (Some true), ds. cbn [sign_apply]. split; [exact H1|]. split; [exact H2|lia].
  - destruct (nat_has_digits (Z.to_nat z)) as (ds & H1 & H2 & H3). exists None, ds. cbn [sign_apply]. split; [exact H1|]. split; [exact H2|lia].
Qed.
