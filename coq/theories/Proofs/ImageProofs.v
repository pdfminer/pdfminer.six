(* C18: the exported BMP file read back by a standard reader, freshness of generated file names, and the
   inline-image scanner on data that does not contain its terminator. *)
From Coq Require Import ZArith List Bool Lia.
From PdfV Require Import Base.ListX Model.Images.
Import ListNotations.
Open Scope Z_scope.

Lemma rd32_le32 v rest : 0 <= v < 4294967296 -> rd32 (le32 v ++ rest) = v.
Proof. intros Hv. unfold le32, rd32. cbn [app]. Z.to_euclidean_division_equations. lia. Qed.

Lemma rd16_le16 v rest : 0 <= v < 65536 -> rd16 (le16 v ++ rest) = v.
Proof. intros Hv. unfold le16, rd16. cbn [app]. Z.to_euclidean_division_equations. lia. Qed.

Lemma swap_rgb_triples : forall n d, length d = (3 * n)%nat ->
  length (swap_rgb d) = length d /\ swap_rgb (swap_rgb d) = d.
Proof.
  induction n as [|n IH]; intros d H.
  - destruct d; [split; reflexivity|discriminate].
  - destruct d as [|r [|g [|b rest]]]; cbn [length] in H; try lia.
    destruct (IH rest ltac:(lia)) as [Hl Hi]. cbn [swap_rgb length]. rewrite Hl, Hi. split; reflexivity.
Qed.

Lemma take_rows_concat ls : forall rows, Forall (fun r => length r = ls) rows ->
  forall rest, take_rows (length rows) ls (concat rows ++ rest) = rows.
Proof.
  induction 1 as [|r rows Hr Hrs IH]; intros rest; [reflexivity|].
  cbn [length take_rows concat]. rewrite <- app_assoc, firstn_app_len, skipn_app_len, IH by exact Hr. reflexivity.
Qed.

Lemma pad_to_length n d : (length d <= n)%nat -> length (pad_to n d) = n.
Proof. intros H. unfold pad_to. rewrite app_length, repeat_length. lia. Qed.

(* one stored row decodes to the row that was given: padding is dropped, and the colour order is restored *)
Theorem row_roundtrip bits width d :
  (bits = 1 \/ bits = 8 \/ bits = 24) -> 0 <= width ->
  length d = Z.to_nat ((width * bits + 7) / 8) ->
  let stored := bmp_row bits width d in
  length stored = Z.to_nat (linesize bits width) /\
  (let e := firstn (Z.to_nat ((width * bits + 7) / 8)) stored in if bits =? 24 then swap_rgb e else e) = d.
Proof.
  intros Hb Hw Hd. cbv zeta.
  assert (Hls : (Z.to_nat ((width * bits + 7) / 8) <= Z.to_nat (linesize bits width))%nat).
  { unfold linesize, align32. apply Z2Nat.inj_le; Z.to_euclidean_division_equations; nia. }
  unfold bmp_row, pad_to. destruct (bits =? 24) eqn:E.
  - apply Z.eqb_eq in E. subst bits.
    destruct (swap_rgb_triples (Z.to_nat width) d) as [Hl Hi].
    { rewrite Hd. change 3%nat with (Z.to_nat 3). rewrite <- Z2Nat.inj_mul by lia. f_equal. Z.to_euclidean_division_equations. lia. }
    rewrite firstn_app_len by lia. split; [apply pad_to_length; lia|exact Hi].
  - rewrite firstn_app_len by lia. split; [apply pad_to_length; lia|reflexivity].
Qed.

Lemma row_slices_length (data : bytes) bpl h : 0 <= bpl -> length data = Z.to_nat (bpl * h) ->
  Forall (fun d => length d = Z.to_nat bpl) (row_slices data bpl h).
Proof.
  intros Hb Hl. apply Forall_map, Forall_forall. intros y Hy. apply in_seq in Hy.
  rewrite firstn_length, skipn_length, Hl.
  assert (Z.to_nat bpl <= Z.to_nat (bpl * h) - Z.to_nat (Z.of_nat y * bpl))%nat.
  { rewrite <- Z2Nat.inj_sub by nia. apply Z2Nat.inj_le; nia. }
  lia.
Qed.

Lemma palette_length bits nc : ncols bits = Some nc -> length (palette bits) = Z.to_nat (nc * 4).
Proof.
  unfold ncols, palette. destruct (bits =? 1); [intros [= <-]; reflexivity|].
  destruct (bits =? 8); [intros [= <-]; reflexivity|]. destruct (bits =? 24); [intros [= <-]; reflexivity|discriminate].
Qed.

Lemma slices_roundtrip bits width height (data : bytes) : (bits = 1 \/ bits = 8 \/ bits = 24) -> 0 <= width ->
  let bpl := (width * bits + 7) / 8 in
  length data = Z.to_nat (bpl * height) ->
  Forall (fun d => length (bmp_row bits width d) = Z.to_nat (linesize bits width) /\
                   (let e := firstn (Z.to_nat bpl) (bmp_row bits width d) in if bits =? 24 then swap_rgb e else e) = d)
         (row_slices data bpl height).
Proof.
  intros Hb Hw bpl Hd. assert (Hbpl : 0 <= bpl) by (apply Z.div_pos; nia).
  exact (Forall_impl _ (fun d Hl => row_roundtrip bits width d Hb Hw Hl) (row_slices_length data bpl height Hbpl Hd)).
Qed.

(* what the reader makes of a file laid out as BITMAPFILEHEADER + BITMAPINFOHEADER: only the offset of the pixel
   data, the width, the height and the bit count are looked at *)
Lemma bmp_read_layout size r1 r2 off ihs w h planes bits T f :
  0 <= off < 4294967296 -> 0 <= w < 4294967296 -> 0 <= h < 4294967296 -> 0 <= bits < 65536 ->
  f = [66; 77] ++ le32 size ++ le16 r1 ++ le16 r2 ++ le32 off ++ le32 ihs ++ le32 w ++ le32 h ++ le16 planes ++ le16 bits ++ T ->
  bmp_read f =
  let ls := Z.to_nat (linesize bits w) in
  let body := skipn (Z.to_nat off) f in
  if Nat.ltb (length body) (ls * Z.to_nat h) then None
  else Some (mkImage w h bits
               (map (fun r => let d := firstn (Z.to_nat ((w * bits + 7) / 8)) r in if bits =? 24 then swap_rgb d else d)
                    (rev (take_rows (Z.to_nat h) ls body)))).
Proof.
  intros Ho Hw Hh Hb ->. unfold bmp_read. cbn [app skipn le32 le16].
  (* cbn has spelled every field out as bytes: fold the four that are read back *)
  change (rd32 (off mod 256 :: ?a :: ?b :: ?c :: ?t)) with (rd32 (le32 off ++ t)).
  change (rd32 (w mod 256 :: ?a :: ?b :: ?c :: ?t)) with (rd32 (le32 w ++ t)).
  change (rd32 (h mod 256 :: ?a :: ?b :: ?c :: ?t)) with (rd32 (le32 h ++ t)).
  change (rd16 (bits mod 256 :: ?a :: ?t)) with (rd16 (le16 bits ++ t)).
  rewrite !rd32_le32, rd16_le16 by assumption. reflexivity.
Qed.

Theorem bmp_roundtrip bits width height data :
  (bits = 1 \/ bits = 8 \/ bits = 24) -> 0 < width < 32768 -> 0 <= height < 32768 ->
  let bpl := (width * bits + 7) / 8 in
  length data = Z.to_nat (bpl * height) ->
  exists f, bmp_file bits width height bpl data = Some f /\
            bmp_read f = Some (mkImage width height bits (row_slices data bpl height)).
Proof.
  intros Hb Hw Hh bpl Hd.
  assert (Hnc : exists nc, ncols bits = Some nc /\ 0 <= nc <= 256)
    by (destruct Hb as [ -> | [ -> | -> ] ]; eexists; (split; [reflexivity|lia])).
  destruct Hnc as (nc & Enc & Hnc).
  unfold bmp_file, bmp_header. rewrite Enc. eexists. split; [reflexivity|].
  set (hs := 14 + 40 + nc * 4). set (hd := [66; 77] ++ _).
  set (ls := Z.to_nat (linesize bits width)).
  set (rows := map (bmp_row bits width) (row_slices data bpl height)).
  (* of the bounds on width and height only this is used: the four fields the reader looks at are below 2^32 *)
  erewrite (bmp_read_layout _ 0 0 hs 40 width height 1 bits _ (hd ++ concat (rev rows))) by (lia || reflexivity).
  cbv zeta. fold bpl ls.
  (* the pixel data starts right after the header *)
  rewrite skipn_app_len
    by (change (length hd) with (54 + length (palette bits))%nat; rewrite (palette_length bits nc Enc); lia).
  pose proof (slices_roundtrip bits width height data Hb ltac:(lia) Hd) as Hrt. fold bpl ls in Hrt.
  assert (Hrows : Forall (fun r => length r = ls) (rev rows)).
  { apply Forall_rev, Forall_map. apply (Forall_impl _ (fun d => @proj1 _ _) Hrt). }
  assert (Hn : length (A := list Z) (rev rows) = Z.to_nat height)
    by (unfold rows, row_slices; rewrite rev_length, !map_length; apply seq_length).
  rewrite (concat_length_uniform ls _ Hrows), Hn, Nat.ltb_irrefl.
  rewrite <- Hn, <- (app_nil_r (concat (rev rows))), (take_rows_concat ls _ Hrows), rev_involutive.
  unfold rows. rewrite map_map. do 2 f_equal. rewrite <- (map_id (row_slices data bpl height)) at 2.
  apply map_ext_Forall. exact (Forall_impl _ (fun d => @proj2 _ _) Hrt).
Qed.

Lemma unique_go_fresh existing base ext : forall fuel idx n,
  unique_go fuel existing base ext idx = Some n -> exists_in existing n = false.
Proof.
  induction fuel as [|f IH]; intros idx n H; [discriminate|]. cbn [unique_go] in H.
  destruct (exists_in existing (base ++ [46] ++ decimal idx ++ ext)) eqn:E; [apply (IH _ _ H)|].
  injection H as <-. exact E.
Qed.
Theorem unique_name_fresh existing base ext n : unique_name existing base ext = Some n -> exists_in existing n = false.
Proof.
  unfold unique_name. destruct (exists_in existing (base ++ ext)) eqn:E.
  - apply unique_go_fresh.
  - intros H. injection H as <-. exact E.
Qed.

(* "EI" followed by white space occurs in s *)
Fixpoint has_marker (s : bytes) : bool :=
  match s with
  | [] => false
  | c :: r => (match r with
               | i :: w :: _ => (c =? 69) && (i =? 73) && is_space w
               | _ => false
               end) || has_marker r
  end.

Lemma has_marker_tail c r : has_marker (c :: r) = false -> has_marker r = false.
Proof. cbn [has_marker]. intros H. apply orb_false_iff in H. apply H. Qed.

(* the matcher state (number of bytes of "EI" just read) after s, started in state i, if the scan did not stop *)
Definition state_after (i : nat) (s : bytes) : nat :=
  fold_left (fun st c => match st with
                         | O => if c =? 69 then 1%nat else O
                         | 1%nat => if c =? 73 then 2%nat else O
                         | _ => O
                         end) s i.

(* scanning a marker-free text never stops inside it.  In state i the matcher has just read the first i bytes of
   "EI": no marker may begin there either *)
Lemma scan_free : forall s i acc tail, has_marker (firstn i [69; 73] ++ s) = false -> (i <= 2)%nat ->
  scan i acc (s ++ tail) = scan (state_after i s) (rev_append s acc) tail.
Proof.
  induction s as [|c r IH]; intros i acc tail Hm Hi; [reflexivity|].
  cbn [app scan state_after fold_left rev_append]. destruct i as [|[|[|i]]]; try lia; cbn [firstn app] in Hm.
  - destruct (Z.eqb_spec c 69) as [->|N]; apply IH; try lia; [exact Hm|exact (has_marker_tail _ _ Hm)].
  - destruct (Z.eqb_spec c 73) as [->|N]; apply IH; try lia; [exact Hm|].
    do 2 apply has_marker_tail in Hm. exact Hm.
  - pose proof Hm as Hc. cbn [has_marker] in Hc. apply orb_false_iff in Hc. destruct Hc as [Hc _].
    cbn [Z.eqb Pos.eqb andb] in Hc. rewrite Hc. apply IH; [|lia]. do 3 apply has_marker_tail in Hm. exact Hm.
Qed.

Lemma state_after_nl i s : state_after i (s ++ [10]) = O.
Proof.
  unfold state_after. rewrite fold_left_app. cbn [fold_left].
  destruct (fold_left _ s i) as [|[|n]]; reflexivity.
Qed.

Theorem inline_capture data ws rest : is_space ws = true -> has_marker (data ++ [10]) = false ->
  inline_data (data ++ [10] ++ [69; 73; ws] ++ rest) = (strip_eol (data ++ [10]), rest).
Proof.
  intros Hws Hm. unfold inline_data. rewrite app_assoc.
  rewrite (scan_free (data ++ [10]) 0%nat [] _ Hm) by lia. rewrite state_after_nl.
  cbn [app scan Z.eqb Pos.eqb]. rewrite Hws, <- rev_alt.
  change (ws :: 73 :: 69 :: rev (data ++ [10])) with (rev [69; 73; ws] ++ rev (data ++ [10])).
  rewrite <- rev_app_distr, rev_involutive, firstn_app_len by (rewrite (app_length (data ++ [10])); symmetry; apply Nat.add_sub).
  reflexivity.
Qed.

Lemma strip_eol_nl data : (forall d, data <> d ++ [13]) -> strip_eol (data ++ [10]) = data.
Proof.
  intros H. unfold strip_eol. rewrite rev_app_distr. cbn [rev app].
  rewrite <- (rev_involutive data) in H |- * at 2. destruct (rev data) as [|c r]; [reflexivity|].
  destruct (Z.eq_dec c 13) as [->|Hc]; [destruct (H (rev r)); reflexivity|].
  (* strip_eol matches on the literal 13: that c is another number can only be used digit by digit *)
  destruct c as [|p|p]; try reflexivity. do 4 (destruct p; try reflexivity). congruence.
Qed.

