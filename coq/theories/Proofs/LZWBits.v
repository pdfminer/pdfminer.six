(* C03, LZW at the bit level: readbits takes the next w bits of the stream, most significant first; hence a stream
   that carries, in the widths the decoder expects (early change), the codes of any admissible phrase sequence decodes
   to the data. *)
From Coq Require Import ZArith List Bool Lia.
From PdfV Require Import Model.Filters Proofs.LZWProofs.
Import ListNotations.
Open Scope Z_scope.

Definition bytes_val (l : list Z) : Z := fold_left (fun a x => a * 256 + x) l 0.
Definition byte (x : Z) : Prop := 0 <= x < 256.
Definition nbytes (l : list Z) : Z := Z.of_nat (length l).

Lemma pow_nbytes_cons x r : 2 ^ (8 * nbytes (x :: r)) = 256 * 2 ^ (8 * nbytes r).
Proof.
  unfold nbytes. cbn [length]. replace (8 * Z.of_nat (S (length r))) with (8 + 8 * Z.of_nat (length r)) by lia.
  apply Z.pow_add_r; lia.
Qed.
Lemma pow_nbytes_pos l : 0 < 2 ^ (8 * nbytes l).
Proof. apply Z.pow_pos_nonneg; unfold nbytes; lia. Qed.

Lemma fold_val l : forall a, fold_left (fun a x => a * 256 + x) l a = a * 2 ^ (8 * nbytes l) + bytes_val l.
Proof.
  unfold bytes_val. induction l as [|x r IH]; intros a; [cbn; lia|].
  cbn [fold_left]. rewrite IH, (IH (0 * 256 + x)), pow_nbytes_cons. lia.
Qed.
Lemma bytes_val_cons x r : bytes_val (x :: r) = x * 2 ^ (8 * nbytes r) + bytes_val r.
Proof. unfold bytes_val at 1. cbn [fold_left]. rewrite fold_val. lia. Qed.
Lemma bytes_val_range l : Forall byte l -> 0 <= bytes_val l < 2 ^ (8 * nbytes l).
Proof.
  induction 1 as [|x r Hx Hr IH]; [cbn; lia|].
  rewrite bytes_val_cons, pow_nbytes_cons. pose proof (pow_nbytes_pos r). unfold byte in Hx. nia.
Qed.

Definition wfb (b : bitst) : Prop := 0 <= bpos b <= 8 /\ byte (bbuff b) /\ Forall byte (brest b).
(* number of bits left, and their value *)
Definition blen (b : bitst) : Z := (8 - bpos b) + 8 * nbytes (brest b).
Definition bval (b : bitst) : Z := (bbuff b mod 2 ^ (8 - bpos b)) * 2 ^ (8 * nbytes (brest b)) + bytes_val (brest b).
(* the next w bits as a number, most significant bit first *)
Definition top (b : bitst) (w : Z) : Z := bval b / 2 ^ (blen b - w).

Lemma bval_range b : wfb b -> 0 <= bval b < 2 ^ blen b.
Proof.
  intros (Hp & Hb & Hr). unfold bval, blen. pose proof (bytes_val_range _ Hr) as HW.
  assert (HX : 0 <= bbuff b mod 2 ^ (8 - bpos b) < 2 ^ (8 - bpos b)) by (apply Z.mod_pos_bound, Z.pow_pos_nonneg; lia).
  rewrite Z.pow_add_r by (unfold nbytes; lia). pose proof (pow_nbytes_pos (brest b)). nia.
Qed.

(* a number written as hi * A + lo, cut above and below the boundary A *)
Lemma split_high hi lo A S : 0 < S -> 0 <= lo < A ->
  (hi * A + lo) / (A * S) = hi / S /\ (hi * A + lo) mod (A * S) = (hi mod S) * A + lo.
Proof.
  intros HS Hlo. assert (E : (hi * A + lo) / A = hi) by (rewrite Z.div_add_l, Z.div_small by lia; lia).
  split; [rewrite <- Z.div_div, E by lia; reflexivity|].
  rewrite Z.rem_mul_r, E by lia. rewrite (Z.add_comm (hi * A)), Z.mod_add, Z.mod_small by lia. lia.
Qed.
Lemma split_low hi lo M T : 0 < T ->
  (hi * (M * T) + lo) / T = hi * M + lo / T /\ (hi * (M * T) + lo) mod T = lo mod T.
Proof.
  intros HT. rewrite Z.mul_assoc. split; [apply Z.div_add_l; lia|]. rewrite Z.add_comm. apply Z.mod_add. lia.
Qed.
Lemma mod_mul_split a K M : 0 < K -> 0 < M -> (a mod (K * M)) / K = (a / K) mod M /\ (a mod (K * M)) mod K = a mod K.
Proof.
  intros HK HM. rewrite Z.rem_mul_r, (Z.mul_comm K) by lia. split.
  - rewrite Z.div_add, Z.div_small by (try lia; apply Z.mod_pos_bound; lia). reflexivity.
  - rewrite Z.mod_add, Z.mod_mod by lia. reflexivity.
Qed.

Lemma next_byte x rest : byte x ->
  blen (mkB rest x 0) = 8 * nbytes (x :: rest) /\ bval (mkB rest x 0) = bytes_val (x :: rest).
Proof.
  intros Hx. unfold blen, bval. cbn [bpos bbuff brest]. rewrite bytes_val_cons, (Z.mod_small x) by exact Hx.
  unfold nbytes. cbn [length]. split; [lia|reflexivity].
Qed.

(* taking w bits that end in the current byte *)
Lemma take_within b w : wfb b -> 0 <= w <= 8 - bpos b ->
  let b' := mkB (brest b) (bbuff b) (bpos b + w) in
  top b w = (bbuff b / 2 ^ (8 - bpos b - w)) mod 2 ^ w /\ wfb b' /\ blen b' = blen b - w /\
  bval b' = bval b mod 2 ^ (blen b - w).
Proof.
  destruct b as [rest buf pos]. intros (Hp & Hb & Hr) Hw. unfold wfb, top, bval, blen. cbn [bpos bbuff brest] in *.
  set (r := 8 - pos) in *. pose proof (bytes_val_range _ Hr) as HW.
  assert (HN : 0 <= 8 * nbytes rest) by (unfold nbytes; lia).
  assert (PS : 0 < 2 ^ (r - w)) by (apply Z.pow_pos_nonneg; lia).
  assert (Pw : 0 < 2 ^ w) by (apply Z.pow_pos_nonneg; lia).
  replace (8 - (pos + w)) with (r - w) by (unfold r; lia).
  replace (r + 8 * nbytes rest - w) with (8 * nbytes rest + (r - w)) by lia. rewrite Z.pow_add_r by lia.
  destruct (split_high (buf mod 2 ^ r) (bytes_val rest) _ _ PS HW) as [-> ->].
  replace (2 ^ r) with (2 ^ (r - w) * 2 ^ w) by (rewrite <- Z.pow_add_r by lia; f_equal; lia).
  destruct (mod_mul_split buf _ _ PS Pw) as [-> ->]. repeat split; try assumption; apply Hb || lia.
Qed.

(* taking w bits that go on into the next byte x: the r bits left of the current byte, then w - r bits from x on *)
Lemma take_across b x rest w : wfb b -> brest b = x :: rest -> 8 - bpos b < w <= blen b ->
  let r := 8 - bpos b in let b1 := mkB rest x 0 in
  wfb b1 /\ 0 <= w - r <= blen b1 /\ blen b1 - (w - r) = blen b - w /\
  top b w = (bbuff b mod 2 ^ r) * 2 ^ (w - r) + top b1 (w - r) /\
  bval b1 mod 2 ^ (blen b1 - (w - r)) = bval b mod 2 ^ (blen b - w).
Proof.
  destruct b as [rest0 buf pos]. cbn [bpos bbuff brest]. intros (Hp & Hb & Hr) -> Hw. cbn [bpos brest] in Hp, Hr. set (r := 8 - pos) in *.
  inversion Hr as [|? ? Hx Hrest]; subst. destruct (next_byte x rest Hx) as [Hl1 Hv1].
  unfold top. rewrite Hl1, Hv1. unfold bval, blen in *. cbn [bpos bbuff brest] in *. fold r in Hw |- *.
  set (N := 8 * nbytes (x :: rest)) in *. set (t := r + N - w).
  replace (N - (w - r)) with t by (unfold t; lia).
  assert (Pt : 0 < 2 ^ t) by (apply Z.pow_pos_nonneg; unfold t; lia).
  replace (2 ^ N) with (2 ^ (w - r) * 2 ^ t) by (rewrite <- Z.pow_add_r by (unfold t; lia); f_equal; unfold t; lia).
  destruct (split_low (buf mod 2 ^ r) (bytes_val (x :: rest)) (2 ^ (w - r)) _ Pt) as [-> ->].
  repeat split; try assumption; try apply Hx; unfold t; cbn [bpos]; lia.
Qed.

(* fuel counts the bytes touched: the current one and one more per unit; lzw_run asks for 4, enough for 12 bits *)
Lemma readbits_spec : forall fuel b w v, wfb b -> 0 <= w <= blen b -> w <= (8 - bpos b) + 8 * (Z.of_nat fuel - 1) -> (1 <= fuel)%nat ->
  exists b', readbits fuel b w v = Some (v * 2 ^ w + top b w, b') /\ wfb b' /\ blen b' = blen b - w /\
             bval b' = bval b mod 2 ^ (blen b - w).
Proof.
  induction fuel as [|f IH]; intros b w v Hwf Hw Hfuel Hf1; [lia|]. cbn [readbits].
  destruct (w <=? 8 - bpos b) eqn:E.
  - apply Z.leb_le in E. destruct (take_within b w Hwf ltac:(lia)) as (-> & H). eexists. split; [reflexivity|exact H].
  - apply Z.leb_gt in E. destruct (brest b) as [|x rest] eqn:Er; [unfold blen, nbytes in Hw; rewrite Er in Hw; cbn [length] in Hw; lia|].
    destruct (take_across b x rest w Hwf Er ltac:(lia)) as (Hwf1 & Hw1 & El & -> & Ev).
    destruct (IH (mkB rest x 0) (w - (8 - bpos b)) (v * 2 ^ (8 - bpos b) + bbuff b mod 2 ^ (8 - bpos b)) Hwf1 Hw1)
      as (b' & -> & Hwf' & Hl' & Hv'); [cbn [bpos]; lia|lia|].
    exists b'. rewrite Hv', Ev, Hl', El. repeat split; try apply Hwf'.
    replace (2 ^ w) with (2 ^ (8 - bpos b) * 2 ^ (w - (8 - bpos b))) by (rewrite <- Z.pow_add_r by (destruct Hwf; lia); f_equal; lia).
    f_equal. f_equal. ring.
Qed.

(* the stream b, read by a decoder in state s, carries the codes ks: the next znbits s bits are the first code (the
   decoder alone knows the width of the next code: early change), the decoder accepts it, and what is left of the
   stream -- any b' with that many bits of that value, see carries_ext -- carries the others; at the end fewer bits
   than one code remain *)
Inductive carries : bitst -> lzwst -> list Z -> Prop :=
| car_end : forall b s, blen b < znbits s -> carries b s []
| car_code : forall b s k r x s' b', znbits s <= blen b -> top b (znbits s) = k ->
    lzw_feed s k = FeedOk x s' -> wfb b' -> blen b' = blen b - znbits s -> bval b' = bval b mod 2 ^ (blen b - znbits s) ->
    carries b' s' r -> carries b s (k :: r).

(* only the number of remaining bits and their value matter *)
Lemma carries_ext b b2 s ks : blen b2 = blen b -> bval b2 = bval b -> carries b s ks -> carries b2 s ks.
Proof.
  intros El Ev C. inversion C as [? ? Hend|? ? k r x s' b' Hle Htop Hf Hw' Hl' Hv' C']; subst.
  - constructor. rewrite El. exact Hend.
  - apply (car_code b2 s _ r x s' b'); unfold top; rewrite ?El, ?Ev; assumption || reflexivity.
Qed.

Lemma readbits_eof : forall fuel b w v, wfb b -> blen b < w -> readbits fuel b w v = None.
Proof.
  induction fuel as [|f IH]; intros b w v Hwf Hl; [reflexivity|].
  destruct Hwf as (Hp & Hb & Hr). cbn [readbits].
  replace (w <=? 8 - bpos b) with false by (symmetry; apply Z.leb_gt; unfold blen, nbytes in Hl; lia).
  destruct (brest b) as [|x rest] eqn:Er; [reflexivity|].
  inversion Hr as [|? ? Hx Hrest]; subst. apply IH.
  - repeat split; cbn [bpos bbuff brest]; try lia; assumption || apply Hx.
  - rewrite (proj1 (next_byte x rest Hx)). unfold blen in Hl. rewrite Er in Hl. lia.
Qed.

Definition widths_ok (s : lzwst) : Prop := 9 <= znbits s <= 12.

(* [case], not [destruct]: the numerals 511, 1023, 2047 are unary, and destruct would look for them in the context *)
Lemma width_after_ok len n : 9 <= n <= 12 -> 9 <= width_after len n <= 12.
Proof.
  intros H. unfold width_after. case (len =? 511)%nat; [split; discriminate|].
  case (len =? 1023)%nat; [split; discriminate|]. case (len =? 2047)%nat; [split; discriminate|exact H].
Qed.

Lemma feed_width s k x s' : widths_ok s -> lzw_feed s k = FeedOk x s' -> widths_ok s'.
Proof.
  unfold widths_ok, lzw_feed. intros Hw.
  destruct (k =? 256); [intros [= _ <-]; split; discriminate|]. destruct (k =? 257); [intros [= _ <-]; exact Hw|].
  destruct (match zprev s with None => true | Some [] => true | Some (_ :: _) => false end).
  - destruct (nth_error (ztable s) (Z.to_nat k)) as [[y|]|]; intros [= _ <-]; exact Hw.
  - destruct (Z.to_nat k <? length (ztable s))%nat.
    + destruct (nth_error (ztable s) (Z.to_nat k)) as [[y|]|]; intros [= _ <-]. exact (width_after_ok _ _ Hw).
    + destruct (Z.to_nat k =? length (ztable s))%nat; intros [= _ <-]. exact (width_after_ok _ _ Hw).
Qed.

Theorem carried_codes_decode : forall ks b s out fuel, carries b s ks -> wfb b -> widths_ok s ->
  feed_all s ks = Some out -> (length ks < fuel)%nat -> lzw_run fuel b s = FOk out.
Proof.
  induction ks as [|k ks IH]; intros b s out [|fuel] C Hwf Hw F Hfuel; cbn [length] in Hfuel; try lia; cbn [lzw_run].
  - inversion C; subst. injection F as <-. rewrite readbits_eof by assumption. reflexivity.
  - inversion C as [|? ? ? ? x s' b' Hl Ht Hfeed Hwf' Hl' Hv' C']; subst.
    destruct (readbits_spec 4 b (znbits s) 0 Hwf) as (b2 & -> & Hwf2 & Hl2 & Hv2);
      [unfold widths_ok in Hw; lia|destruct Hwf as (Hp & _); unfold widths_ok in Hw; lia|lia|].
    rewrite Z.mul_0_l, Z.add_0_l, Hfeed. cbn [feed_all] in F. rewrite Hfeed in F.
    destruct (feed_all s' ks) as [t|] eqn:Ft; [injection F as <-|discriminate].
    (* the state readbits returns carries the same remaining bits as b' *)
    rewrite <- Hl' in Hl2. rewrite <- Hv' in Hv2.
    rewrite (IH b2 s' t fuel (carries_ext b' b2 s' ks Hl2 Hv2 C') Hwf2 (feed_width _ _ _ _ Hw Hfeed) Ft) by lia. reflexivity.
Qed.

Lemma carries_length : forall b s ks, carries b s ks -> widths_ok s -> wfb b -> 9 * Z.of_nat (length ks) <= blen b.
Proof.
  intros b s ks C. induction C as [b s Hend|b s k r x s' b' Hle Htop Hfeed Hwf' Hl' Hv' C IH]; intros Hw Hwf.
  - destruct Hwf as (Hp & _). unfold blen, nbytes. cbn [length]. lia.
  - specialize (IH (feed_width _ _ _ _ Hw Hfeed) Hwf'). unfold widths_ok in Hw. cbn [length]. lia.
Qed.

(* whatever codes the stream carries, lzwdecode returns what feeding them returns; an end-of-data code adds nothing *)
Lemma stream_of_feeds data ks out s' (eod : bool) : Forall byte data -> feeds lzw_init ks out s' ->
  carries (mkB data 0 8) lzw_init (ks ++ (if eod then [257] else [])) -> lzwdecode data = FOk out.
Proof.
  intros Hd F C.
  assert (Hwf : wfb (mkB data 0 8)) by (repeat split; cbn [bpos bbuff brest]; try lia; exact Hd).
  assert (Hw : widths_ok lzw_init) by (split; discriminate).
  assert (F' : feeds lzw_init (ks ++ (if eod then [257] else [])) (out ++ []) s').
  { apply (feeds_app _ _ _ _ _ _ _ F). destruct eod; [|constructor]. exact (feeds_cons _ _ _ _ _ _ _ (feed_eod s') (feeds_nil s')). }
  rewrite app_nil_r in F'. apply (carried_codes_decode _ _ _ _ _ C Hwf Hw (feeds_feed_all _ _ _ _ F')).
  pose proof (carries_length _ _ _ C Hw Hwf) as L. unfold blen, nbytes in L. cbn [bpos brest] in L. lia.
Qed.

(* a byte string whose bits, most significant first and in the widths the decoder expects (early change),
   are: clear-table, the codes of any admissible phrase sequence for the data, optionally end-of-data, and then
   fewer bits than one more code -- decodes to the data *)
Theorem lzw_stream_decodes data ws ks (eod : bool) : Forall byte data ->
  length ks = length ws -> (forall t, (t < length ws)%nat -> phrase ws t <> []) ->
  (forall t, (t < length ws)%nat -> code_ok ws t (nth t ks 0)) ->
  carries (mkB data 0 8) lzw_init (256 :: ks ++ (if eod then [257] else [])) ->
  lzwdecode data = FOk (concat ws).
Proof.
  intros Hd Hl _ Hc C. destruct (segment_decodes ws ks lzw_init Hl Hc) as (s' & F).
  exact (stream_of_feeds data (256 :: ks) _ s' eod Hd F C).
Qed.

(* a checker for the hypothesis [carries], so that concrete instances are established by computation *)
Fixpoint carriesb (b : bitst) (s : lzwst) (ks : list Z) : bool :=
  match ks with
  | [] => blen b <? znbits s
  | k :: r =>
      match readbits 4 b (znbits s) 0 with
      | Some (k', b') => (k' =? k) && match lzw_feed s k with FeedOk _ s' => carriesb b' s' r | _ => false end
      | None => false
      end
  end.
Lemma carriesb_sound : forall ks b s, wfb b -> widths_ok s -> carriesb b s ks = true -> carries b s ks.
Proof.
  induction ks as [|k ks IH]; intros b s Hwf Hw H; cbn [carriesb] in H.
  - constructor. apply Z.ltb_lt. exact H.
  - destruct (readbits 4 b (znbits s) 0) as [[k' b']|] eqn:E; [|discriminate].
    apply andb_true_iff in H. destruct H as [Hk H]. destruct (lzw_feed s k) as [x s'| | |] eqn:Ef; try discriminate.
    assert (Hle : znbits s <= blen b).
    { destruct (Z_lt_le_dec (blen b) (znbits s)) as [Hlt|Hge]; [|exact Hge].
      rewrite (readbits_eof 4 b (znbits s) 0 Hwf Hlt) in E. discriminate. }
    destruct (readbits_spec 4 b (znbits s) 0 Hwf) as (b2 & E2 & Hwf2 & Hl2 & Hv2);
      [unfold widths_ok in Hw; lia|destruct Hwf as (Hp & _); unfold widths_ok in Hw; lia|lia|].
    rewrite E in E2. injection E2 as Ek <-. apply Z.eqb_eq in Hk.
    apply (car_code b s k ks x s' b'); try assumption; [lia|].
    apply IH; [exact Hwf2|apply (feed_width s k x s' Hw Ef)|exact H].
Qed.

(* non-vacuity: the example of ISO 32000-1 7.4.4.2 (-----A---B), through the theorem *)
Example lzw_iso_example :
  let data := [128; 11; 96; 80; 34; 12; 12; 133; 1] in
  let ws := [[45]; [45; 45]; [45; 45]; [65]; [45; 45; 45]; [66]] in
  let ks := [45; 258; 258; 65; 259; 66] in
  (Forall byte data /\ length ks = length ws /\ (forall t, (t < length ws)%nat -> phrase ws t <> []) /\
   (forall t, (t < length ws)%nat -> code_ok ws t (nth t ks 0)) /\
   carries (mkB data 0 8) lzw_init (256 :: ks ++ [257])) /\
  lzwdecode data = FOk [45; 45; 45; 45; 45; 65; 45; 45; 45; 66].
Proof.
  cbv zeta. match goal with |- ?P /\ _ => assert (H : P) end.
  { split; [repeat constructor; unfold byte; lia|]. split; [reflexivity|]. split; [|split].
    - intros t Ht. cbn [length] in Ht. do 6 (destruct t as [|t]; [cbn; discriminate|]). lia.
    - intros t Ht. cbn [length] in Ht. destruct t as [|t]; [left; exists 45; cbn; repeat split; lia|].
      destruct t as [|t]; [right; exists 0%nat; cbn; repeat split; lia|].
      destruct t as [|t]; [right; exists 0%nat; cbn; repeat split; lia|].
      destruct t as [|t]; [left; exists 65; cbn; repeat split; lia|].
      destruct t as [|t]; [right; exists 1%nat; cbn; repeat split; lia|].
      destruct t as [|t]; [left; exists 66; cbn; repeat split; lia|]. lia.
    - apply carriesb_sound; [repeat split; cbn; try lia; repeat constructor; unfold byte; lia|unfold widths_ok; cbn; lia|].
      vm_compute. reflexivity. }
  split; [exact H|]. destruct H as (H1 & H2 & H3 & H4 & H5).
  exact (lzw_stream_decodes _ _ _ true H1 H2 H3 H4 H5).
Qed.
