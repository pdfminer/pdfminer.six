(* Invariants of the byte automaton: token positions are non-decreasing and lie
   inside the input; shifting the absolute offset shifts positions and nothing else. *)
From Coq Require Import ZArith List Lia.
From PdfV Require Import Gen.LexClasses Model.Lexer Proofs.LexerProofs.
Import ListNotations.
Open Scope Z_scope.

(* newest first: bounded by hi, then non-increasing, all >= base *)
Fixpoint toks_ok (base hi : Z) (l : list (Z * token)) : Prop :=
  match l with
  | [] => True
  | (p, _) :: r => base <= p <= hi /\ toks_ok base p r
  end.

Lemma toks_ok_mono base hi hi' l : toks_ok base hi l -> hi <= hi' -> toks_ok base hi' l.
Proof. destruct l as [|[p t] r]; cbn; intuition lia. Qed.

(* While the byte at position [ap] is processed: a token is emitted at [tpos], which is never beyond that byte.  [ap]
   stays fixed through [step_core] ([adv] comes after), so that [Good base ap] can be the P of [step_core_keeps]. *)
Definition Good (base ap : Z) (st : lst) : Prop :=
  apos st = ap /\ base <= tpos st <= ap /\ toks_ok base (tpos st) (toks st).

Definition Inv (base : Z) (st : lst) : Prop := Good base (apos st) st.

Lemma good_set base ap f : setter f -> forall s, Good base ap s -> Good base ap (f s).
Proof.
  intros [] s H; try exact H. destruct H as (Ha & Ht & Hk).
  repeat split; cbn [tpos toks emit toks_ok]; try assumption; lia.
Qed.

Lemma good_main base ap c s : Good base ap s -> Good base ap (step_main s c).
Proof.
  intros H. unfold step_main. destruct (re_NONSPC c); [|exact H].
  apply main_dispatch_keeps; [apply good_set|]. destruct H as (Ha & Ht & Hk).
  repeat split; cbn [apos tpos toks set_tpos]; try assumption; try lia. eapply toks_ok_mono; [eassumption|lia].
Qed.

(* once a byte has been read, the start of the token under way lies strictly before the next byte *)
Lemma step_inv base st c : Inv base st -> Inv base (step st c) /\ tpos (step st c) < apos (step st c).
Proof.
  intros H.
  destruct (step_core_keeps _ (good_set base (apos st)) c (fun s => good_main _ _ c s) st H) as (Ha & Ht & Hk).
  unfold step, Inv, Good. cbn [apos tpos toks adv]. rewrite Ha. repeat split; try assumption; lia.
Qed.

Lemma run_inv base s : forall st, Inv base st ->
  Inv base (run st s) /\ (s <> [] -> tpos (run st s) < apos (run st s)).
Proof.
  induction s as [|c s IH]; intros st H; [split; [exact H|congruence]|].
  destruct (step_inv base st c H) as [H1 H2]. destruct (IH _ H1) as [H3 H4].
  split; [exact H3|]. intros _. destruct s; [exact H2|apply H4; discriminate].
Qed.

Lemma init_inv pos : Inv pos (init pos).
Proof. unfold Inv, Good, init. cbn. lia. Qed.

Lemma apos_step st c : apos (step st c) = apos st + 1.
Proof.
  assert (K : forall f, setter f -> forall s, apos s = apos st -> apos (f s) = apos st) by (intros f [] s H; exact H).
  unfold step. cbn [apos adv]. f_equal. apply (step_core_keeps _ K c); [|reflexivity].
  intros s H. unfold step_main. destruct (re_NONSPC c); [apply (main_dispatch_keeps _ K)|]; exact H.
Qed.

Lemma apos_run s : forall st, apos (run st s) = apos st + len s.
Proof.
  induction s as [|c s IH]; intros st; [unfold len; cbn; lia|].
  rewrite run_cons, IH, apos_step, len_cons. lia.
Qed.

(* The white-space byte fed at EOF starts no token ([step_main s 10] computes to [s]): a token it completes is emitted
   at the [tpos] reached before it. *)
Lemma eof_toks base st : Inv base st -> toks_ok base (tpos st) (toks (step st 10)).
Proof.
  intros (_ & Ht & Hk). unfold step. cbn [toks adv].
  refine (proj2 (step_core_keeps (fun s => tpos s = tpos st /\ toks_ok base (tpos st) (toks s))
                                 _ 10 (fun s H => H) st (conj eq_refl Hk))).
  intros f [] s H; try exact H. destruct H as (E & H1). cbn [tpos toks emit toks_ok]. rewrite E.
  repeat split; try assumption; lia.
Qed.

Fixpoint sorted_asc (l : list Z) : Prop :=
  match l with
  | [] => True
  | p :: r => match r with [] => True | q :: _ => p <= q end /\ sorted_asc r
  end.

Lemma toks_ok_in base hi l : toks_ok base hi l -> forall pt, In pt l -> base <= fst pt <= hi.
Proof.
  revert hi. induction l as [|[p t] r IH]; intros hi H pt Hin; [contradiction|].
  cbn in H. destruct H as [Hp Hr]. destruct Hin as [E|Hin].
  - subst. cbn. lia.
  - specialize (IH p Hr pt Hin). lia.
Qed.

Lemma sorted_asc_app_one l p : sorted_asc l -> (forall q, In q l -> q <= p) -> sorted_asc (l ++ [p]).
Proof.
  induction l as [|a r IH]; intros Hs Hall; [cbn; auto|].
  cbn [app]. cbn in Hs. destruct Hs as [Ha Hr]. cbn [sorted_asc]. split.
  - destruct r as [|b r']; cbn [app].
    + apply Hall. left. reflexivity.
    + exact Ha.
  - apply IH; [exact Hr|]. intros q Hq. apply Hall. right. exact Hq.
Qed.

Lemma toks_ok_sorted base hi l : toks_ok base hi l -> sorted_asc (map fst (rev l)).
Proof.
  revert hi. induction l as [|[p t] r IH]; intros hi H; [cbn; auto|].
  cbn in H. destruct H as [Hp Hr]. cbn [rev]. rewrite map_app. cbn [map fst].
  apply sorted_asc_app_one; [eapply IH; exact Hr|].
  intros q Hq. apply in_map_iff in Hq. destruct Hq as [pt [E Hin]]. subst q.
  apply in_rev in Hin. pose proof (toks_ok_in _ _ _ Hr pt Hin). lia.
Qed.

(* positions of all tokens are non-decreasing and inside [pos, pos + |data|) *)
Theorem lex_positions pos data :
  sorted_asc (map fst (lex pos data)) /\
  forall pt, In pt (lex pos data) -> pos <= fst pt < pos + len data.
Proof.
  destruct data as [|d data]; [split; [exact I|intros pt []]|].
  unfold lex, tokens_of. rewrite run_app, run_one. set (st := run (init pos) (d :: data)).
  destruct (run_inv pos (d :: data) (init pos) (init_inv pos)) as [HI Hlt]. fold st in HI, Hlt.
  pose proof (eof_toks pos st HI) as Hok. split; [eapply toks_ok_sorted; exact Hok|].
  (* every token lies at or below the start of the last one, which is before the end of the data *)
  intros pt Hin. apply in_rev in Hin. pose proof (toks_ok_in _ _ _ Hok pt Hin).
  specialize (Hlt ltac:(discriminate)). unfold st in Hlt at 2. rewrite apos_run in Hlt. cbn [apos init] in Hlt. lia.
Qed.

Definition shiftp (k : Z) (pt : Z * token) : Z * token := (fst pt + k, snd pt).
Definition shift (k : Z) (st : lst) : lst :=
  mkL (lmode st) (cur st) (tpos st + k) (paren st) (oct st) (hexb st) (map (shiftp k) (toks st)) (apos st + k).

Lemma shift_read k a b : a = shift k b -> same_read a b.
Proof. intros ->. repeat split. Qed.
Lemma shift_set k f : setter f -> forall a b, a = shift k b -> f a = shift k (f b).
Proof. intros [] a b ->; reflexivity. Qed.

Lemma step_shift k st c : step (shift k st) c = shift k (step st c).
Proof.
  unfold step.
  rewrite (step_core_rel _ (shift_read k) (shift_set k) c) with (b := st); try reflexivity.
  - unfold shift, adv. cbn [lmode cur tpos paren oct hexb toks apos]. f_equal. lia.
  - apply (step_main_rel _ (shift_read k) (shift_set k)). intros a b ->. reflexivity.
Qed.

Lemma run_shift k s : forall st, run (shift k st) s = shift k (run st s).
Proof. induction s as [|c s IH]; intros st; [reflexivity|]. rewrite !run_cons, step_shift. apply IH. Qed.

(* reading the same bytes at another absolute offset changes positions only *)
Theorem lex_shift k pos data : lex (pos + k) data = map (shiftp k) (lex pos data).
Proof.
  unfold lex, tokens_of. change (init (pos + k)) with (shift k (init pos)).
  rewrite run_shift. cbn [toks shift]. rewrite map_rev. reflexivity.
Qed.

Theorem lex_offset pos data : lex pos data = map (shiftp pos) (lex 0 data).
Proof. exact (lex_shift pos 0 data). Qed.
