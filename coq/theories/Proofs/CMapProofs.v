(* Model/CMaps.v: decoding along the code trie, Identity decoding, ToUnicode targets and their big-endian ranges,
   W arrays through one lemma on runs of consecutive keys. *)
From Coq Require Import ZArith QArith List Lia ZifyBool.
From PdfV Require Import Model.Fonts Model.Labels Model.CMaps Proofs.LabelsProofs Proofs.FontProofs.
Import ListNotations.
Open Scope Z_scope.

(* the node reached from dictionary d along a non-empty code, all proper prefixes being inner nodes *)
Fixpoint tget (d : tdict) (code : list Z) : option trie :=
  match code with
  | [] => None
  | i :: r =>
      match r with
      | [] => tlookup i d
      | _ => match tlookup i d with Some (TNode d') => tget d' r | _ => None end
      end
  end.

Lemma decode_code root : forall code d cid rest, tget d code = Some (TLeaf cid) ->
  decode_go root d (code ++ rest) = cid :: decode_go root root rest.
Proof.
  induction code as [|i r IH]; intros d cid rest H; [discriminate|].
  cbn [tget] in H. cbn [app decode_go].
  destruct r as [|j r'].
  - rewrite H. reflexivity.
  - destruct (tlookup i d) as [[x|d']|]; try discriminate. apply IH. exact H.
Qed.

(* a string that is a concatenation of codes, each a root-to-leaf path of the CMap's trie, decodes to exactly
   the CIDs of those codes, in order: whatever the code lengths (1, 2, 3, 4 bytes mixed) *)
Theorem segmentation root cs : Forall (fun c => tget root (fst c) = Some (TLeaf (snd c))) cs ->
  cmap_decode root (concat (map fst cs)) = map snd cs.
Proof.
  unfold cmap_decode. induction 1 as [|c cs Hc Hr IH]; [reflexivity|].
  cbn [map concat]. rewrite (decode_code root (fst c) root (snd c) _ Hc). rewrite IH. reflexivity.
Qed.

Definition be2 (c : Z) : list Z := [c / 256; c mod 256].

Lemma pairs_be_app cids tail : pairs_be (flat_map be2 cids ++ tail) = cids ++ pairs_be tail.
Proof.
  induction cids as [|c r IH]; [reflexivity|].
  cbn [flat_map be2 app pairs_be]. rewrite <- Z_div_mod_eq_full, IH. reflexivity.
Qed.

Theorem identity_two_bytes cids : identity_decode (flat_map be2 cids) = cids.
Proof. unfold identity_decode. rewrite <- (app_nil_r (flat_map be2 cids)), pairs_be_app. apply app_nil_r. Qed.

Theorem add_bytes m cid cps : Forall scalar cps -> cps <> [160] ->
  add_cid2unichr m cid (TBytes (flat_map enc16 cps)) = UOk ((cid, cps) :: m).
Proof.
  intros H Hn. unfold add_cid2unichr. rewrite (utf16_decode cps H) by lia.
  destruct (str_eqb cps [160]) eqn:E; [apply ListX.zs_eqb_eq in E; congruence|]. reflexivity.
Qed.

Lemma umap_get_cons c u m cid : umap_get ((c, u) :: m) cid = if cid =? c then Some u else umap_get m cid.
Proof. reflexivity. Qed.

Lemma nunpack_snoc v lo : nunpack (v ++ [lo]) = nunpack v * 256 + lo.
Proof. unfold nunpack. rewrite fold_left_app. reflexivity. Qed.

Definition bytes_ok (l : list Z) : Prop := Forall (fun b => 0 <= b < 256) l.

Lemma byte_div q r : 0 <= r < 256 -> (q * 256 + r) / 256 = q.
Proof. intros H. rewrite Z.div_add_l, Z.div_small by lia. apply Z.add_0_r. Qed.
Lemma byte_mod q r : 0 <= r < 256 -> (q * 256 + r) mod 256 = r.
Proof. intros H. rewrite Z.add_comm, Z.mod_add by lia. apply Z.mod_small, H. Qed.

Lemma pack_tail_nunpack a b c d k : bytes_ok [a; b; c; d] ->
  pack_tail (nunpack [a; b; c; d]) (S k) = Some (skipn (3 - k) [a; b; c; d]).
Proof.
  intros H. repeat (apply Forall_cons_iff in H; destruct H as [? H]).
  unfold pack_tail, be4, nunpack. cbn [fold_left].
  replace ((0 <=? _) && _) with true by lia.
  change 16777216 with (256 * 256 * 256). change 65536 with (256 * 256). rewrite <- !Z.div_div by lia.
  rewrite !byte_div, !byte_mod by assumption. reflexivity.
Qed.

Lemma pack_roundtrip v : bytes_ok v -> (1 <= length v <= 4)%nat -> pack_tail (nunpack v) (length v) = Some v.
Proof.
  intros Hb Hl. destruct v as [|a [|b [|c [|d [|]]]]]; cbn [length] in Hl; try lia.
  (* a shorter string is the four-byte case with leading zeros, which nunpack does not see *)
  1: apply (pack_tail_nunpack 0 0 0 a 0). 2: apply (pack_tail_nunpack 0 0 a b 1).
  3: apply (pack_tail_nunpack 0 a b c 2). 4: apply (pack_tail_nunpack a b c d 3).
  all: repeat (apply Forall_cons; [lia|]); exact Hb.
Qed.

Lemma lastn_snoc {A} n (p : list A) x : lastn (S n) (p ++ [x]) = lastn n p ++ [x].
Proof.
  unfold lastn. rewrite app_length, skipn_app. cbn [length].
  replace (length p + 1 - S n)%nat with (length p - n)%nat by lia.
  replace (length p - n - length p)%nat with 0%nat by lia. reflexivity.
Qed.
Lemma butlastn_snoc {A} n (p : list A) x : butlastn (S n) (p ++ [x]) = butlastn n p.
Proof.
  unfold butlastn. rewrite app_length, firstn_app. cbn [length].
  replace (length p + 1 - S n)%nat with (length p - n)%nat by lia.
  replace (length p - n - length p)%nat with 0%nat by lia. apply app_nil_r.
Qed.

Theorem bfrange_target p lo i : bytes_ok (p ++ [lo]) -> 0 <= i -> lo + i < 256 ->
  let c := p ++ [lo] in
  match pack_tail (nunpack (lastn 4 c) + i) (length (lastn 4 c)) with
  | Some t => butlastn 4 c ++ t = p ++ [lo + i]
  | None => False
  end.
Proof.
  intros Hb Hi Hlo. cbv zeta. rewrite lastn_snoc, butlastn_snoc, nunpack_snoc.
  (* p = q ++ v with v its last three bytes (or all of it) *)
  pose proof (firstn_skipn (length p - 3) p) as Hp. fold (butlastn 3 p) (lastn 3 p) in Hp.
  assert (Hl : (length (lastn 3 p) <= 3)%nat) by (unfold lastn; rewrite skipn_length; lia).
  revert Hp Hl. generalize (butlastn 3 p) as q, (lastn 3 p) as v. intros q v Hp Hl. subst p.
  replace (nunpack v * 256 + lo + i) with (nunpack (v ++ [lo + i])) by (rewrite nunpack_snoc; lia).
  replace (length (v ++ [lo])) with (length (v ++ [lo + i])) by (rewrite !app_length; reflexivity).
  rewrite pack_roundtrip.
  - apply app_assoc.
  - unfold bytes_ok in *. rewrite <- app_assoc, !Forall_app in Hb. destruct Hb as (_ & Hv & Hlo').
    apply Forall_app. split; [exact Hv|]. inversion Hlo'; subst. constructor; [lia|constructor].
  - rewrite app_length. cbn [length]. lia.
Qed.

(* Storing the values vs under the keys c, c+1, ... of a dictionary with a get/put law: [run] is any function
   that does so one key after the other. *)
Section Run.
  Context {D V W : Type} (get : D -> Z -> option W) (put : Z -> V -> D -> D) (val : Z -> V -> W)
          (run : list V -> Z -> D -> D) (v0 : V).
  Hypothesis get_put : forall k v d k', get (put k v d) k' = if k' =? k then Some (val k v) else get d k'.
  Hypothesis run_nil : forall c d, run [] c d = d.
  Hypothesis run_cons : forall v vs c d, run (v :: vs) c d = run vs (c + 1) (put c v d).

  Lemma run_get vs : forall c d k,
    get (run vs c d) k =
    if (c <=? k) && (k <? c + Z.of_nat (length vs)) then Some (val k (nth (Z.to_nat (k - c)) vs v0)) else get d k.
  Proof.
    induction vs as [|v vs IH]; intros c d k; cbn [length].
    - rewrite run_nil. replace ((c <=? k) && _) with false by lia. reflexivity.
    - rewrite run_cons, IH, get_put. destruct (Z.eqb_spec k c) as [->|Hne].
      + replace ((c + 1 <=? c) && _) with false by lia. replace ((c <=? c) && _) with true by lia.
        rewrite Z.sub_diag. reflexivity.
      + destruct ((c + 1 <=? k) && _) eqn:E.
        * replace ((c <=? k) && _) with true by lia.
          replace (Z.to_nat (k - c)) with (S (Z.to_nat (k - (c + 1)))) by lia. reflexivity.
        * replace ((c <=? k) && _) with false by lia. reflexivity.
  Qed.
End Run.

(* ISO 32000-1 9.7.4.3: c [w1 ... wn]  and  cfirst clast w *)
Inductive wentry := WRun (c : Z) (ws : list Q) | WRange (c1 c2 : Z) (w : Q).
Definition zq (z : Z) : Q := inject_Z z.
Definition encode_entry (e : wentry) : list witem :=
  match e with
  | WRun c ws => [WN (zq c) true; WL (map (fun w => WN w false) ws)]
  | WRange c1 c2 w => [WN (zq c1) true; WN (zq c2) true; WN w false]
  end.
Definition covers (e : wentry) (cid : Z) : option Q :=
  match e with
  | WRun c ws => if (c <=? cid) && (cid <? c + Z.of_nat (length ws)) then nth_error ws (Z.to_nat (cid - c)) else None
  | WRange c1 c2 w => if (c1 <=? cid) && (cid <=? c2) then Some w else None
  end.
(* the LAST entry covering the cid *)
Fixpoint iso_w (es : list wentry) (cid : Z) : option Q :=
  match es with
  | [] => None
  | e :: r => match iso_w r cid with Some w => Some w | None => covers e cid end
  end.

Lemma qint_zq z : qint (zq z) = z.
Proof. unfold qint, zq, inject_Z. cbn. apply Z.div_1_r. Qed.
Lemma integral_zq z : integral (zq z) = true.
Proof. unfold integral, zq, inject_Z. cbn. rewrite Z.mod_1_r. reflexivity. Qed.

Lemma wlookup_cons c w m cid : wlookup ((c, Some w) :: m) cid = if cid =? c then Some w else wlookup m cid.
Proof. unfold wlookup. cbn [zassoc]. destruct (cid =? c); reflexivity. Qed.

Lemma set_run_lookup ws m c cid :
  wlookup (set_run m c (map (fun w => WN w false) ws)) cid =
    if (c <=? cid) && (cid <? c + Z.of_nat (length ws)) then Some (nth (Z.to_nat (cid - c)) ws 0%Q) else wlookup m cid.
Proof.
  exact (run_get wlookup (fun c w m => (c, Some w) :: m) (fun _ w => w)
                 (fun ws c m => set_run m c (map (fun w => WN w false) ws)) 0%Q
                 wlookup_cons (fun _ _ => eq_refl) (fun _ _ _ _ => eq_refl) ws c m cid).
Qed.

Lemma set_range_lookup n m c w cid :
  wlookup (set_range m c n w) cid = if (c <=? cid) && (cid <? c + Z.of_nat n) then Some w else wlookup m cid.
Proof.
  (* run_get speaks of a list of values; n equal values are n units *)
  rewrite <- (repeat_length tt n).
  exact (run_get wlookup (fun c _ m => (c, Some w) :: m) (fun _ _ => w) (fun us c m => set_range m c (length us) w) tt
                 (fun c _ => wlookup_cons c w) (fun _ _ => eq_refl) (fun _ _ _ _ => eq_refl) (repeat tt n) c m cid).
Qed.

(* get_widths clips a range to 0..65535; inside these bounds it is taken as written *)
Definition entry_ok (e : wentry) : Prop :=
  match e with WRun _ _ => True | WRange c1 c2 _ => 0 <= c1 /\ c2 <= 65535 end.

Lemma get_widths_entries : forall es m cid, Forall entry_ok es ->
  wlookup (get_widths m [] (flat_map encode_entry es)) cid =
    match iso_w es cid with Some w => Some w | None => wlookup m cid end.
Proof.
  induction es as [|e es IH]; intros m cid Hok; [reflexivity|].
  inversion Hok as [|? ? He Hes]; subst.
  destruct e as [c ws|c1 c2 w]; cbn [flat_map encode_entry app get_widths rev].
  - cbn [rev app]. rewrite integral_zq, qint_zq. rewrite IH by exact Hes. cbn [iso_w covers].
    destruct (iso_w es cid); [reflexivity|]. rewrite set_run_lookup.
    destruct ((c <=? cid) && (cid <? c + Z.of_nat (length ws))) eqn:E; [|reflexivity].
    rewrite (nth_error_nth' ws 0%Q) by lia. reflexivity.
  - cbn [andb]. rewrite !qint_zq. cbv zeta. cbn [entry_ok] in He.
    replace (Z.max c1 0) with c1 by lia. replace (Z.min c2 65535) with c2 by lia.
    rewrite IH by exact Hes. cbn [iso_w covers].
    destruct (iso_w es cid); [reflexivity|]. rewrite set_range_lookup.
    replace ((c1 <=? cid) && (cid <? c1 + Z.of_nat (Z.to_nat (c2 - c1 + 1)))) with ((c1 <=? cid) && (cid <=? c2)) by lia.
    destruct ((c1 <=? cid) && (cid <=? c2)); reflexivity.
Qed.
