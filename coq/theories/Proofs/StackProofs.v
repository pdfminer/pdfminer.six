(* Object layer: reading the token sequence [tprint v] of a value tree without bare keywords pushes [norm v], the value
   with null-valued dictionary entries dropped and the last of equal keys kept; a bare reference needs a parser that
   does not flush in between (inside a container, or a PDFParser). *)
From Coq Require Import ZArith List Lia.
From PdfV Require Import Base.ListX Model.Lexer Model.StackParser.
Import ListNotations.
Open Scope Z_scope.

(* Coq's own principle for [value] has no induction hypothesis for the elements of the nested lists *)
Section ValueInd.
  Variable P : value -> Prop.
  Hypothesis HNull : P VNull.
  Hypothesis HBool : forall b, P (VBool b).
  Hypothesis HInt : forall z, P (VInt z).
  Hypothesis HReal : forall sp, P (VReal sp).
  Hypothesis HName : forall n, P (VName n).
  Hypothesis HStr : forall s, P (VStr s).
  Hypothesis HArr : forall l, Forall P l -> P (VArr l).
  Hypothesis HDict : forall d, Forall (fun kv => P (snd kv)) d -> P (VDict d).
  Hypothesis HRef : forall n, P (VRef n).
  Hypothesis HKw : forall k, P (VKw k).
  Fixpoint value_ind2 (v : value) : P v :=
    match v with
    | VNull => HNull | VBool b => HBool b | VInt z => HInt z | VReal sp => HReal sp
    | VName n => HName n | VStr s => HStr s
    | VArr l => HArr l ((fix go (l : list value) : Forall P l :=
                           match l with [] => Forall_nil _ | x :: r => Forall_cons _ (value_ind2 x) (go r) end) l)
    | VDict d => HDict d ((fix go (d : list (list Z * value)) : Forall (fun kv => P (snd kv)) d :=
                             match d with
                             | [] => Forall_nil _
                             | kv :: r => Forall_cons _ (value_ind2 (snd kv)) (go r)
                             end) d)
    | VRef n => HRef n | VKw k => HKw k
    end.
End ValueInd.

(* values a PDF file can spell: no bare keywords *)
Fixpoint wfv (v : value) : Prop :=
  match v with
  | VKw _ => False
  | VArr l => (fix go (l : list value) : Prop := match l with [] => True | x :: r => wfv x /\ go r end) l
  | VDict d => (fix go (d : list (list Z * value)) : Prop :=
                  match d with [] => True | kv :: r => wfv (snd kv) /\ go r end) d
  | _ => True
  end.

Lemma wfv_arr l : wfv (VArr l) <-> Forall wfv l.
Proof. exact (Forall_fix wfv l). Qed.
Lemma wfv_dict d : wfv (VDict d) <-> Forall (fun kv => wfv (snd kv)) d.
Proof. exact (Forall_fix (fun kv => wfv (snd kv)) d). Qed.

(* the parser is inside a container, or it is a PDFParser (which never flushes) *)
Definition stable (fl : flavour) (s : pst) : Prop :=
  match fl with PPdf => True | PStream => ctx s <> [] end.

Lemma after_stable fl s : stable fl s -> after_token fl s = s.
Proof.
  destruct fl; unfold stable, after_token; intros H.
  - destruct (ctx s); [exfalso; apply H; reflexivity|reflexivity].
  - destruct (ctx s); reflexivity.
Qed.

Lemma stable_start_type fl t s : stable fl (start_type t s).
Proof. destruct fl; cbn; [discriminate|exact I]. Qed.

Lemma stable_push fl v s : stable fl s -> stable fl (push v s).
Proof. destruct fl; cbn; auto. Qed.

(* [push] iterated *)
Definition pushes (vs : list value) (s : pst) : pst :=
  mkP (ctx s) (curtype s) (curstack s ++ vs) (results s).

Lemma pushes_nil s : pushes [] s = s.
Proof. destruct s; unfold pushes; cbn. rewrite app_nil_r. reflexivity. Qed.
Lemma pushes_cons v vs s : pushes (v :: vs) s = pushes vs (push v s).
Proof. unfold pushes, push. cbn. rewrite <- app_assoc. reflexivity. Qed.
Lemma stable_pushes fl vs s : stable fl s -> stable fl (pushes vs s).
Proof. destruct fl; cbn; auto. Qed.

(* in a parser that does not flush, the tokens of v have the effect of pushing [norm v] *)
Definition reads_back (fl : flavour) (v : value) : Prop :=
  forall s rest, stable fl s ->
    run_toks fl s (tprint v ++ rest) = run_toks fl (push (norm v) s) rest.

Lemma run_step fl s t s' rest :
  tok_step fl s t = Ok s' -> run_toks fl s (t :: rest) = run_toks fl (after_token fl s') rest.
Proof. intros H. cbn [run_toks]. rewrite H. reflexivity. Qed.

Lemma run_scalar fl s t v rest :
  stable fl s -> tok_step fl s t = Ok (push v s) ->
  run_toks fl s (t :: rest) = run_toks fl (push v s) rest.
Proof. intros Hs Ht. rewrite (run_step _ _ _ _ _ Ht), after_stable by (apply stable_push; exact Hs). reflexivity. Qed.

Lemma reads_back_list fl l :
  Forall (reads_back fl) l ->
  forall s rest, stable fl s ->
    run_toks fl s (flat_map tprint l ++ rest) = run_toks fl (pushes (map norm l) s) rest.
Proof.
  induction 1 as [|x r Hx Hr IH]; intros s rest Hs.
  - cbn. rewrite pushes_nil. reflexivity.
  - cbn [flat_map map]. rewrite <- app_assoc. rewrite Hx by exact Hs.
    rewrite IH by (apply stable_push; exact Hs). rewrite pushes_cons. reflexivity.
Qed.

Definition kvnorm (kv : list Z * value) : list Z * value := match kv with (k, x) => (k, norm x) end.

Lemma reads_back_pairs fl d :
  Forall (fun kv => reads_back fl (snd kv)) d ->
  forall s rest, stable fl s ->
    run_toks fl s (flat_map (fun kv => TLit (fst kv) :: tprint (snd kv)) d ++ rest)
    = run_toks fl (pushes (flat_map (fun kv => [VName (fst kv); norm (snd kv)]) d) s) rest.
Proof.
  induction 1 as [|[k x] r Hx Hr IH]; intros s rest Hs.
  - cbn. rewrite pushes_nil. reflexivity.
  - cbn [flat_map fst snd app]. rewrite <- app_assoc.
    rewrite (run_scalar fl s (TLit k) (VName k)) by (auto; reflexivity).
    cbn [snd] in Hx. rewrite Hx by (apply stable_push; exact Hs).
    rewrite IH by (apply stable_push, stable_push; exact Hs).
    rewrite !pushes_cons. reflexivity.
Qed.

Lemma chop_pairs_flat : forall d fuel, (2 * length d <= fuel)%nat ->
  chop_pairs fuel (flat_map (fun kv => [VName (fst kv); norm (snd kv)]) d) = Some (map kvnorm d).
Proof.
  induction d as [|[k x] r IH]; intros fuel Hf.
  - destruct fuel; reflexivity.
  - destruct fuel as [|f]; [cbn in Hf; lia|].
    cbn [flat_map app fst snd chop_pairs]. rewrite IH by (cbn [length] in Hf; lia). reflexivity.
Qed.

Lemma flat_pairs_length d :
  length (flat_map (fun kv : list Z * value => [VName (fst kv); norm (snd kv)]) d) = (2 * length d)%nat.
Proof. induction d as [|kv r IH]; cbn [flat_map length app]; [reflexivity|]. rewrite IH. lia. Qed.

(* `R` replaces the two topmost operands by a reference to the lower one *)
Lemma do_R_ref cx ct cs n g rs : do_R (mkP cx ct (cs ++ [VInt n; VInt g]) rs) = Ok (mkP cx ct (cs ++ [VRef n]) rs).
Proof.
  unfold do_R, droplast. cbn [curstack ctx curtype results].
  replace (length (cs ++ [VInt n; VInt g]) - 2)%nat with (length cs) by (rewrite app_length; cbn [length]; lia).
  rewrite nth_middle, (firstn_app_len cs _ _ eq_refl). reflexivity.
Qed.

Lemma tok_step_R fl n g s : tok_step fl (push (VInt g) (push (VInt n) s)) (TKw K_R) = Ok (push (VRef n) s).
Proof.
  destruct s as [cx ct cs rs]. unfold tok_step, do_keyword, push.
  cbn [kw_eqb bytes_eqb K_R K_xref K_startxref K_endobj K_null Z.eqb andb orb Pos.eqb curstack ctx curtype results].
  rewrite <- app_assoc. cbn [app].
  replace (2 <=? length (cs ++ [VInt n; VInt g]))%nat with true by (symmetry; apply Nat.leb_le; rewrite app_length; cbn [length]; lia).
  destruct fl; apply do_R_ref.
Qed.

Lemma tok_step_arr_close fl vs s : tok_step fl (pushes vs (start_type CTa s)) (TKw [93]) = Ok (push (VArr vs) s).
Proof. destruct s. reflexivity. Qed.

Lemma tok_step_dict_close fl d s :
  tok_step fl (pushes (flat_map (fun kv => [VName (fst kv); norm (snd kv)]) d) (start_type CTd s)) (TKw [62; 62])
  = Ok (push (norm (VDict d)) s).
Proof.
  destruct s as [cx ct cs rs]. unfold tok_step. cbn [kw_eqb bytes_eqb Z.eqb andb Pos.eqb].
  unfold end_type, pushes, start_type. cbn [curtype ctx curstack results ctype_eqb app].
  rewrite flat_pairs_length, Nat.even_mul, chop_pairs_flat by lia. reflexivity.
Qed.

(* a reference may carry any generation number; pdfminer keeps the object number *)
Lemma ref_any_generation fl n g s rest : stable fl s ->
  run_toks fl s ([TInt n; TInt g; TKw K_R] ++ rest) = run_toks fl (push (VRef n) s) rest.
Proof.
  intros Hs. cbn [app]. rewrite (run_scalar fl s (TInt n) (VInt n)) by (auto; reflexivity).
  rewrite (run_scalar fl _ (TInt g) (VInt g)) by (try apply stable_push; auto; reflexivity).
  rewrite (run_step _ _ _ _ _ (tok_step_R fl n g s)), after_stable by (apply stable_push, Hs). reflexivity.
Qed.

(* Reading v from any state.  Inside a container the parser is stable whatever it was outside, so only a reference
   (which takes two operands from the enclosing stack) needs a stable parser. *)
Definition reads_anywhere (fl : flavour) (v : value) : Prop :=
  forall s rest, stable fl s \/ (forall n, v <> VRef n) ->
    run_toks fl s (tprint v ++ rest) = run_toks fl (after_token fl (push (norm v) s)) rest.

Lemma reads_back_stable fl v : reads_anywhere fl v -> reads_back fl v.
Proof. intros H s rest Hs. rewrite H, after_stable by (try apply stable_push; auto). reflexivity. Qed.

Theorem reads_back_any fl : forall v, wfv v -> reads_anywhere fl v.
Proof.
  induction v using value_ind2; intros Hwf st rest Hs; try (apply run_step; destruct fl; reflexivity).
  - (* array *)
    apply wfv_arr in Hwf. assert (HF : Forall (reads_back fl) l).
    { rewrite Forall_forall in *. intros x Hx. apply reads_back_stable, H; [exact Hx|apply Hwf, Hx]. }
    cbn [tprint app]. rewrite (run_step fl st (TKw [91]) (start_type CTa st)) by reflexivity.
    rewrite after_stable, <- app_assoc, (reads_back_list fl l HF) by apply stable_start_type.
    apply run_step, tok_step_arr_close.
  - (* dictionary *)
    apply wfv_dict in Hwf. assert (HF : Forall (fun kv => reads_back fl (snd kv)) d).
    { rewrite Forall_forall in *. intros x Hx. apply reads_back_stable, H; [exact Hx|apply Hwf, Hx]. }
    cbn [tprint app]. rewrite (run_step fl st (TKw [60; 60]) (start_type CTd st)) by reflexivity.
    rewrite after_stable, <- app_assoc, (reads_back_pairs fl d HF) by apply stable_start_type.
    apply run_step, tok_step_dict_close.
  - (* reference: n 0 R inside the current context *)
    destruct Hs as [Hs|Hs]; [|destruct (Hs n); reflexivity].
    rewrite after_stable by (apply stable_push; exact Hs). apply ref_any_generation, Hs.
  - (* bare keyword: excluded *) contradiction.
Qed.

Lemma reads_back_all fl : forall v, wfv v -> reads_back fl v.
Proof.
  intros v Hwf. apply reads_back_stable, reads_back_any, Hwf.
Qed.

(* top level, PDFStreamParser: one spelled value (not a bare reference) gives exactly that value *)
Theorem stream_toplevel : forall v, wfv v -> (forall n, v <> VRef n) ->
  parse_all PStream (tprint v) = Ok [norm v].
Proof.
  intros v Hwf Hnr. unfold parse_all. rewrite <- (app_nil_r (tprint v)), (reads_back_any PStream v Hwf) by (right; exact Hnr).
  reflexivity.
Qed.

(* PDFParser: `n g obj <value> endobj` yields the four results n, g, obj, value *)
Theorem pdf_indirect_object : forall n g v, wfv v ->
  parse_all PPdf ([TInt n; TInt g; TKw K_obj] ++ tprint v ++ [TKw K_endobj])
  = Ok [VInt n; VInt g; VKw K_obj; norm v].
Proof.
  intros n g v Hwf. unfold parse_all. cbn [app].
  rewrite (run_step PPdf pinit (TInt n) (push (VInt n) pinit)) by reflexivity.
  rewrite (run_step PPdf _ (TInt g) (push (VInt g) (push (VInt n) pinit))) by reflexivity.
  rewrite (run_step PPdf _ (TKw K_obj) (push (VKw K_obj) (push (VInt g) (push (VInt n) pinit)))) by reflexivity.
  cbn [after_token push pinit ctx]. rewrite (reads_back_all PPdf v Hwf) by exact I. reflexivity.
Qed.
