(* C08: lines -> boxes keeps every line in exactly one box. *)
From Coq Require Import QArith List Lia Lqa Permutation.
From PdfV Require Import Base.Num Base.ListX Model.Plane Model.Layout Proofs.PlaneProofs Proofs.LayoutProofs.
Import ListNotations.

Lemma nassoc_nremove {V} k (a : list (nat * V)) : forall x,
  nassoc x (nremove k a) = if Nat.eqb x k then None else nassoc x a.
Proof.
  induction a as [|[k2 v] a IH]; intros x; cbn [nremove nassoc].
  - destruct (Nat.eqb x k); reflexivity.
  - destruct (Nat.eqb_spec k k2) as [<-|N]; cbn [nassoc]; rewrite IH; [destruct (Nat.eqb x k); reflexivity|].
    destruct (Nat.eqb_spec x k2) as [->|_]; [|reflexivity]. apply not_eq_sym, Nat.eqb_neq in N. rewrite N. reflexivity.
Qed.

Lemma nassoc_setall b ms : forall (a0 : list (nat * nat)) x,
  nassoc x (fold_left (fun a m => (m, b) :: nremove m a) ms a0) = if mem_nat x ms then Some b else nassoc x a0.
Proof.
  induction ms as [|m ms IH]; intros a0 x; [reflexivity|].
  cbn [fold_left]. rewrite IH. unfold mem_nat at 2. cbn [existsb]. fold (mem_nat x ms).
  destruct (mem_nat x ms); [rewrite orb_true_r; reflexivity|]. rewrite orb_false_r.
  cbn [nassoc]. destruct (Nat.eqb x m) eqn:E; [reflexivity|]. rewrite nassoc_nremove, E. reflexivity.
Qed.

Lemma uniq_in l : forall seen x, In x (uniq l seen) <-> In x l /\ ~ In x seen.
Proof.
  induction l as [|y l IH]; intros seen x; cbn [uniq]; [tauto|].
  destruct (mem_nat y seen) eqn:E; [apply mem_nat_In in E|apply mem_nat_nIn in E]; cbn [In]; rewrite IH; cbn [In].
  - intuition congruence.
  - destruct (Nat.eq_dec y x); intuition congruence.
Qed.
Lemma uniq_nodup l : forall seen, NoDup (uniq l seen).
Proof.
  induction l as [|y l IH]; intros seen; cbn [uniq]; [constructor|].
  destruct (mem_nat y seen); [apply IH|]. constructor; [|apply IH].
  rewrite uniq_in. cbn [In]. tauto.
Qed.

Definition assigned (st : gtstate) (l b : nat) : Prop := nassoc l (assign st) = Some b.

(* the members gathered for line i: the seed, the neighbours, and the whole box of every neighbour that has one;
   the neighbours lose their assignment, nobody else does *)
Lemma collect_spec st : forall nbs asg members members' asg',
  collect nbs asg (boxtab st) members = (members', asg') ->
  (forall m, In m members' <-> In m members \/ In m nbs \/
       exists k b, In k nbs /\ nassoc k asg = Some b /\ In m (members_of st b)) /\
  (forall x, ~ In x nbs -> nassoc x asg' = nassoc x asg).
Proof.
  induction nbs as [|n r IH]; intros asg members members' asg' H; cbn [collect] in H.
  - injection H as <- <-. split; [|reflexivity]. intros m. split; [tauto|].
    intros [H|[[]|(k & b & [] & _)]]. exact H.
  - destruct (nassoc n asg) as [b|] eqn:E; apply IH in H; destruct H as [Hm Hx].
    + fold (members_of st b) in Hm. split.
      * intros m. rewrite Hm, !in_app_iff. cbn [In]. split.
        -- intros [[H|[[<-|[]]|H]]|[H|(k & b0 & Hk & Ha & Hm0)]]; auto.
           ++ right. right. exists n, b. auto.
           ++ rewrite nassoc_nremove in Ha. destruct (Nat.eqb k n); [discriminate|]. right. right. exists k, b0. auto.
        -- intros [H|[[<-|H]|(k & b0 & Hk & Ha & Hm0)]]; auto.
           destruct (Nat.eqb_spec k n) as [->|Hne]; [rewrite E in Ha; injection Ha as <-; auto|].
           destruct Hk as [->|Hk]; [congruence|]. right. right. exists k, b0.
           rewrite nassoc_nremove. apply Nat.eqb_neq in Hne. rewrite Hne. auto.
      * intros x Hn. rewrite Hx, nassoc_nremove by (intros A; apply Hn; right; exact A).
        destruct (Nat.eqb_spec x n) as [->|_]; [destruct Hn; left|]; reflexivity.
    + split.
      * intros m. rewrite Hm, !in_app_iff. cbn [In]. split.
        -- intros [[H|[<-|[]]]|[H|(k & b0 & Hk & Ha & Hm0)]]; auto. right. right. exists k, b0. auto.
        -- intros [H|[[<-|H]|(k & b0 & [->|Hk] & Ha & Hm0)]]; auto; [congruence|]. right. right. exists k, b0. auto.
      * intros x Hn. apply Hx. intros A. apply Hn. right. exact A.
Qed.

Lemma gt_step_spec nb st i : exists ms,
  boxtab (gt_step nb st i) = (nextbox st, ms) :: boxtab st /\ nextbox (gt_step nb st i) = S (nextbox st) /\
  NoDup ms /\
  (forall m, In m ms <-> m = i \/ In m (nb i) \/
       exists k b, In k (nb i) /\ assigned st k b /\ In m (members_of st b)) /\
  (forall x, nassoc x (assign (gt_step nb st i)) = if mem_nat x ms then Some (nextbox st) else nassoc x (assign st)).
Proof.
  unfold gt_step. destruct (collect (nb i) (assign st) (boxtab st) [i]) as [members asg] eqn:Ec.
  destruct (collect_spec _ _ _ _ _ _ Ec) as (Cm & Cx).
  assert (Hms : forall m, In m (uniq members []) <-> m = i \/ In m (nb i) \/
       exists k b, In k (nb i) /\ assigned st k b /\ In m (members_of st b)).
  { intros m. rewrite uniq_in, Cm. cbn [In]. intuition congruence. }
  exists (uniq members []). cbn [assign boxtab nextbox].
  split; [reflexivity|]. split; [reflexivity|]. split; [apply uniq_nodup|]. split; [exact Hms|].
  intros x. rewrite nassoc_setall. destruct (mem_nat x (uniq members [])) eqn:E; [reflexivity|].
  apply Cx. intros H. apply mem_nat_nIn in E. apply E, Hms. right. left. exact H.
Qed.

Lemma members_of_cons st st' b' ms b : boxtab st' = (b', ms) :: boxtab st ->
  members_of st' b = if Nat.eqb b b' then ms else members_of st b.
Proof. unfold members_of. intros ->. cbn [nassoc]. destruct (Nat.eqb b b'); reflexivity. Qed.

Section Lines.
  Variables (nb : nat -> list nat) (n : nat).
  Hypothesis self_neighbour : forall i, (i < n)%nat -> In i (nb i).
  Hypothesis in_range : forall i, (i < n)%nat -> forall m, In m (nb i) -> (m < n)%nat.

  (* after k lines: a box in use (one that some line is assigned to) has distinct members, which are exactly the
     lines assigned to it; only lines below n are assigned, and all those below k are *)
  Record GInv (k : nat) (st : gtstate) : Prop := mkGInv {
    gi_box : forall l b, assigned st l b ->
             In l (members_of st b) /\ NoDup (members_of st b) /\ forall m, In m (members_of st b) -> assigned st m b;
    gi_fresh : forall b ms, nassoc b (boxtab st) = Some ms -> (b < nextbox st)%nat;
    gi_lt : forall l b, assigned st l b -> (l < n)%nat;
    gi_done : forall l, (l < k)%nat -> exists b, assigned st l b
  }.

  Lemma gt_step_inv k st : (k < n)%nat -> GInv k st -> GInv (S k) (gt_step nb st k).
  Proof.
    intros Hk [Hbox Hfresh Hlt Hdone].
    destruct (gt_step_spec nb st k) as (ms & Etab & Enext & Hnd & Hms & Hasg).
    set (st' := gt_step nb st k) in *. set (b' := nextbox st) in *.
    assert (Hin : forall x, In x ms -> assigned st' x b').
    { intros x Hx. unfold assigned. rewrite Hasg. apply mem_nat_In in Hx. rewrite Hx. reflexivity. }
    assert (Hout : forall x b, ~ In x ms -> (assigned st' x b <-> assigned st x b)).
    { intros x b Hx. unfold assigned. rewrite Hasg. apply mem_nat_nIn in Hx. rewrite Hx. reflexivity. }
    assert (Hold : forall l b, assigned st l b -> members_of st' b = members_of st b).
    { intros l b Ha. rewrite (members_of_cons st st' b' ms b Etab).
      destruct (Hbox l b Ha) as (Hl & _). unfold members_of in Hl.
      destruct (nassoc b (boxtab st)) as [ms0|] eqn:E; [|contradiction].
      apply Hfresh, Nat.lt_neq, Nat.eqb_neq in E. rewrite E. reflexivity. }
    (* the new box swallows whole boxes: if one member of an old box in use is taken, all are *)
    assert (Hclosed : forall l b m, assigned st l b -> In m (members_of st b) -> In m ms -> In l ms).
    { intros l b m Ha Hm Hin'. destruct (Hbox l b Ha) as (Hl & _ & Hall). specialize (Hall m Hm).
      apply Hms. right. right.
      apply Hms in Hin'. destruct Hin' as [->|[Hn|(j & b0 & Hj & Haj & Hm0)]].
      - (* the seed k itself sits in the old box b: only because k is its own neighbour does collect take b whole;
           otherwise k would end up in two boxes *)
        exists k, b. split; [exact (self_neighbour k Hk)|]. split; assumption.
      - exists m, b. auto.
      - destruct (Hbox j b0 Haj) as (_ & _ & Hall0). specialize (Hall0 m Hm0).
        unfold assigned in Hall, Hall0. rewrite Hall in Hall0. injection Hall0 as <-. exists j, b. auto. }
    constructor.
    - intros l b Ha. destruct (in_dec Nat.eq_dec l ms) as [Hl|Hl].
      + pose proof (Hin l Hl) as Ha'. unfold assigned in Ha, Ha'. rewrite Ha in Ha'. injection Ha' as ->.
        rewrite (members_of_cons st st' b' ms b' Etab), Nat.eqb_refl. auto.
      + apply (Hout l b Hl) in Ha. rewrite (Hold l b Ha). destruct (Hbox l b Ha) as (H1 & H2 & H3).
        split; [exact H1|]. split; [exact H2|]. intros m Hm. apply Hout; [|apply H3, Hm].
        intros Hm'. apply Hl, (Hclosed l b m Ha Hm Hm').
    - intros b ms0. rewrite Etab, Enext. cbn [nassoc]. destruct (Nat.eqb_spec b b') as [->|_]; [lia|].
      intros H. apply Hfresh in H. lia.
    - intros l b Ha. destruct (in_dec Nat.eq_dec l ms) as [Hl|Hl]; [|apply (Hlt l b), Hout, Ha; exact Hl].
      apply Hms in Hl. destruct Hl as [->|[Hl|(j & b0 & _ & Haj & Hm0)]]; [exact Hk|apply (in_range k Hk l Hl)|].
      destruct (Hbox j b0 Haj) as (_ & _ & Hall0). apply (Hlt l b0), Hall0, Hm0.
    - intros l Hl. destruct (in_dec Nat.eq_dec l ms) as [Hl'|Hl']; [exists b'; apply Hin, Hl'|].
      assert (l <> k) by (intros ->; apply Hl', Hms; left; reflexivity).
      destruct (Hdone l ltac:(lia)) as [b Hb]. exists b. apply Hout; assumption.
  Qed.

  Lemma gt_run_inv : forall k, (k <= n)%nat -> GInv k (gt_run nb k).
  Proof.
    unfold gt_run. induction k as [|k IH]; intros Hk.
    - constructor; unfold assigned; cbn; intros; try discriminate; lia.
    - rewrite seq_S, fold_left_app. cbn [fold_left plus]. apply gt_step_inv; [lia|apply IH; lia].
  Qed.

  Lemma yield_ids_uniq st : forall todo done,
    yield_ids st todo done
    = uniq (flat_map (fun i => match nassoc i (assign st) with Some b => [b] | None => [] end) todo) done.
  Proof.
    induction todo as [|i r IH]; intros done; [reflexivity|]. cbn [yield_ids flat_map].
    destruct (nassoc i (assign st)) as [b|]; cbn [app uniq]; [|apply IH].
    destruct (mem_nat b done); rewrite IH; reflexivity.
  Qed.

  (* the boxes named by the final loop partition the lines: their member lists, concatenated, are a permutation of
     0..n-1 *)
  Theorem textlines_partitioned :
    let st := gt_run nb n in
    Permutation (flat_map (members_of st) (yield_ids st (seq 0 n) [])) (seq 0 n).
  Proof.
    intros st. destruct (gt_run_inv n (Nat.le_refl n)) as [Hbox _ Hlt Hdone]. fold st in Hbox, Hlt, Hdone.
    assert (Hids : forall b, In b (yield_ids st (seq 0 n) []) <-> exists i, (i < n)%nat /\ assigned st i b).
    { intros b. rewrite yield_ids_uniq, uniq_in, in_flat_map. split.
      - intros [(i & Hi & Hb) _]. exists i. apply in_seq in Hi. split; [lia|].
        unfold assigned. destruct (nassoc i (assign st)) as [b0|]; [destruct Hb as [->|[]]; reflexivity|contradiction].
      - intros (i & Hi & Hb). split; [|intros []]. exists i. split; [apply in_seq; lia|]. rewrite Hb. left. reflexivity. }
    apply NoDup_Permutation.
    - (* no line twice: within a box by NoDup, across boxes because a member is assigned to its box *)
      apply NoDup_flat_map.
      + rewrite yield_ids_uniq. apply uniq_nodup.
      + intros b Hb. apply Hids in Hb. destruct Hb as (i & _ & Hb). apply (Hbox i b Hb).
      + intros b1 b2 m H1 H2 M1 M2. apply Hids in H1, H2. destruct H1 as (i1 & _ & A1), H2 as (i2 & _ & A2).
        apply (Hbox i1 b1 A1) in M1. apply (Hbox i2 b2 A2) in M2. unfold assigned in M1, M2. congruence.
    - apply seq_NoDup.
    - intros l. rewrite in_flat_map, in_seq. split.
      + intros (b & Hb & Hm). apply Hids in Hb. destruct Hb as (i & _ & Hb).
        apply (Hbox i b Hb), Hlt in Hm. lia.
      + intros Hl. destruct (Hdone l ltac:(lia)) as [b Hb]. exists b.
        split; [apply Hids; exists l; split; [lia|exact Hb]|apply (Hbox l b Hb)].
  Qed.
End Lines.

Lemma find_make_plane pb objs q :
  wf_bounds pb -> NoDup (map oid objs) -> Forall (fun o => wf_box (obox o)) objs -> wf_box q ->
  forall o, In o (plane_find (make_plane pb objs) q) <-> In o objs /\ overlaps (obox o) q.
Proof.
  intros Hpb Hnd Hwf Hq o.
  destruct (Inv_adds objs (plane_init pb) (Inv_init pb Hpb) Hnd Hwf) as (I & Hs & Hl); [intros ? []|].
  fold (make_plane pb objs) in I, Hs, Hl. cbn [plane_init pseq app] in Hs.
  rewrite (proj2 (find_bruteforce _ q I Hq)), Hs. split; [tauto|].
  intros [H1 H2]. split; [exact H1|]. split; [apply Hl; rewrite Hs; exact H1|exact H2].
Qed.

Definition good_line (l : line) : Prop :=
  match lbox l with
  | Some (x0, y0, x1, y1) => (x0 < x1 /\ y0 < y1)%Q
  | None => False
  end.

Lemma qabs_zero : qabs 0 == 0.
Proof. reflexivity. Qed.
Lemma qle_abs_self a d : 0 <= d -> qle_abs (a - a) d = true.
Proof.
  intros Hd. unfold qle_abs, qabs. apply Qle_bool_iff.
  destruct (Qltb (a - a) 0) eqn:E; [apply Qltb_lt in E|]; lra.
Qed.

Theorem self_is_neighbour p pb lines i l :
  wf_bounds pb -> Forall good_line lines -> 0 <= line_margin p -> nth_error lines i = Some l ->
  In i (neighbors p (make_plane pb (line_objs lines)) lines i).
Proof.
  intros Hpb Hgood Hlm Hi. rewrite Forall_forall in Hgood.
  pose proof (Hgood l (nth_error_In _ _ Hi)) as Hgl.
  unfold good_line in Hgl. destruct (lbox l) as [[[[x0 y0] x1] y1]|] eqn:Eb; [|contradiction]. destruct Hgl as [Hx Hy].
  set (me := mkObj i (x0, y0, x1, y1)).
  assert (Hfind : forall q, wf_box q -> overlaps (x0, y0, x1, y1) q ->
                            In me (plane_find (make_plane pb (line_objs lines)) q)).
  { intros q Hq Hov. unfold line_objs. apply find_make_plane; [exact Hpb| | |exact Hq|].
    - rewrite map_map, (map_ext _ fst), enum_fst by reflexivity. apply seq_NoDup.
    - apply Forall_forall. intros o Ho. apply in_map_iff in Ho. destruct Ho as ([j lj] & <- & Hin).
      cbn [obox fst snd]. apply in_combine_r, Hgood in Hin.
      unfold good_line in Hin. destruct (lbox lj) as [[[[a b] c] d]|]; [|contradiction]. cbn [the_box wf_box]. lra.
    - split; [|exact Hov]. apply in_map_iff. exists (i, l). cbn [fst snd]. rewrite Eb. split; [reflexivity|].
      apply (enum_nth lines 0 i l Hi). }
  assert (Hh : 0 <= line_margin p * height (x0, y0, x1, y1)) by (unfold height; cbn [by0 by1]; nra).
  assert (Hw : 0 <= line_margin p * width (x0, y0, x1, y1)) by (unfold width; cbn [bx0 bx1]; nra).
  unfold neighbors. rewrite Hi, Eb. cbn [the_box bx0 by0 bx1 by1].
  (* the two orientations differ only in the side on which the query box is widened by the margin *)
  destruct (lori l) eqn:Eo; apply in_flat_map; exists me; cbn [oid me]; rewrite Hi, Eb; cbn [the_box]; unfold is_h; rewrite Eo.
  all: rewrite !qle_abs_self by assumption; split; [|left; reflexivity].
  all: apply Hfind; [cbn [wf_box]|apply overlaps_iff]; lra.
Qed.

Lemma neighbours_in_range p pl lines i m : In m (neighbors p pl lines i) -> (m < length lines)%nat.
Proof.
  unfold neighbors. destruct (nth_error lines i) as [l|]; [|intros []].
  destruct (lori l); intros H; apply in_flat_map in H; destruct H as (o & _ & Ho);
    destruct (nth_error lines (oid o)) as [l2|] eqn:E; try contradiction;
    match type of Ho with In _ (if ?c then _ else _) => destruct c end; try contradiction;
    destruct Ho as [<-|[]]; apply nth_error_Some; congruence.
Qed.

