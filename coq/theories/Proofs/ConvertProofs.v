(* C11: escaping and the reader's inverse of it; well-nestedness of the XML token stream, checked by a stack machine. *)
From Coq Require Import ZArith List Lia.
From PdfV Require Import Base.ListX Model.Convert.
Import ListNotations.
Open Scope Z_scope.

Lemma escape_app a b : escape (a ++ b) = escape a ++ escape b.
Proof. unfold escape. apply flat_map_app. Qed.

(* one source character costs the reader one step, whatever its escaped length *)
Lemma unescape_step c t f : unescape (S f) (escape_char c ++ t) = c :: unescape f t.
Proof.
  unfold escape_char. destruct (Z.eqb_spec c 38) as [->|N]; [reflexivity|].
  destruct (Z.eqb_spec c 60) as [->|_]; [reflexivity|]. destruct (Z.eqb_spec c 62) as [->|_]; [reflexivity|].
  destruct (Z.eqb_spec c 34) as [->|_]; [reflexivity|]. destruct (Z.eqb_spec c 39) as [->|_]; [reflexivity|].
  cbn [app unescape]. apply Z.eqb_neq in N. rewrite N. reflexivity.
Qed.

Lemma escape_char_safe c : Forall (fun c => c <> 60 /\ c <> 62 /\ c <> 34 /\ c <> 39) (escape_char c).
Proof.
  unfold escape_char. destruct (c =? 38); [repeat constructor; discriminate|].
  destruct (Z.eqb_spec c 60); [repeat constructor; discriminate|]. destruct (Z.eqb_spec c 62); [repeat constructor; discriminate|].
  destruct (Z.eqb_spec c 34); [repeat constructor; discriminate|]. destruct (Z.eqb_spec c 39); [repeat constructor; discriminate|].
  repeat constructor; assumption.
Qed.

Lemma escape_length s : (length s <= length (escape s))%nat.
Proof.
  induction s as [|c s IH]; [reflexivity|]. change (escape (c :: s)) with (escape_char c ++ escape s). rewrite app_length.
  assert (1 <= length (escape_char c))%nat by (unfold escape_char; do 5 (destruct (c =? _); [apply Nat.lt_0_succ|]); apply Nat.lt_0_succ).
  cbn [length]. lia.
Qed.

(* a reader that decodes the five entities gets the original string back: for EVERY string *)
Lemma unescape_chars : forall s fuel, (length s <= fuel)%nat -> unescape fuel (escape s) = s.
Proof.
  induction s as [|c s IH]; intros [|f] Hf; try reflexivity; cbn [length] in Hf; [lia|].
  change (escape (c :: s)) with (escape_char c ++ escape s). rewrite unescape_step, IH by lia. reflexivity.
Qed.

Lemma strip_control_keeps s : Forall (fun c => is_control c = false) s -> strip_control s = s.
Proof.
  induction 1 as [|c s Hc Hs IH]; [reflexivity|]. unfold strip_control in *. cbn [filter]. rewrite Hc. cbn [negb]. f_equal. exact IH.
Qed.

Theorem text_items_app a b : flat_map item_text (a ++ b) = flat_map item_text a ++ flat_map item_text b.
Proof. apply flat_map_app. Qed.

Fixpoint str_eqb (a b : str) : bool :=
  match a, b with [], [] => true | x :: a', y :: b' => (x =? y) && str_eqb a' b' | _, _ => false end.
(* run the tokens against a stack of open element names; None = mismatched or stray closing tag *)
Fixpoint nest (toks : list token) (stack : list str) : option (list str) :=
  match toks with
  | [] => Some stack
  | TOpen n _ :: r => nest r (n :: stack)
  | TClose n :: r => match stack with
                     | top :: st => if str_eqb n top then nest r st else None
                     | [] => None
                     end
  | _ :: r => nest r stack
  end.

Lemma nest_app a : forall b st st', nest a st = Some st' -> nest (a ++ b) st = nest b st'.
Proof.
  induction a as [|t a IH]; intros b st st' H.
  - cbn in H. injection H as <-. reflexivity.
  - destruct t as [n at_|n at_ sp|n|s|]; cbn [app nest] in *; try (apply IH; exact H).
    destruct st as [|top st0]; [discriminate|]. destruct (str_eqb n top); [apply IH; exact H|discriminate].
Qed.

Definition neutral (toks : list token) : Prop := forall st, nest toks st = Some st.

Lemma neutral_nil : neutral [].
Proof. intros st. reflexivity. Qed.
Lemma neutral_app a b : neutral a -> neutral b -> neutral (a ++ b).
Proof. intros Ha Hb st. rewrite (nest_app a b st st (Ha st)). apply Hb. Qed.
Lemma neutral_flat_map {A} (f : A -> list token) l : Forall (fun x => neutral (f x)) l -> neutral (flat_map f l).
Proof. induction 1 as [|x l Hx Hl IH]; [apply neutral_nil|]. cbn [flat_map]. apply neutral_app; assumption. Qed.
Lemma neutral_flat_map_all {A} (f : A -> list token) l : (forall x, neutral (f x)) -> neutral (flat_map f l).
Proof. intros H. apply neutral_flat_map, Forall_forall. intros x _. apply H. Qed.
Lemma neutral_wrap n at_ body : neutral body -> neutral ([TOpen n at_; TNewline] ++ body ++ [TClose n; TNewline]).
Proof.
  intros Hb st. cbn [app nest]. rewrite (nest_app body [TClose n; TNewline] (n :: st) (n :: st) (Hb (n :: st))).
  cbn [nest]. rewrite zs_eqb_refl. reflexivity.
Qed.

Lemma chr_neutral strip c : neutral (chr_tokens strip c).
Proof. intros st. cbn [chr_tokens nest]. rewrite zs_eqb_refl. reflexivity. Qed.
Lemma elem_neutral strip e : neutral (elem_tokens strip e).
Proof. destruct e; [apply chr_neutral|]. intros st. cbn [elem_tokens nest]. rewrite zs_eqb_refl. reflexivity. Qed.
Lemma line_neutral strip l : neutral (line_tokens strip l).
Proof. apply (neutral_wrap n_textline), neutral_flat_map_all, elem_neutral. Qed.
Lemma box_neutral strip b : neutral (box_tokens strip b).
Proof. apply (neutral_wrap n_textbox), neutral_flat_map_all, line_neutral. Qed.
(* figures nest items, groups nest groups: structural recursion through the list of children *)
Fixpoint item_neutral strip (i : item) : neutral (item_tokens strip i).
Proof.
  destruct i as [b|l|c|n bb kids|k lw bb pts|w h]; cbn [item_tokens].
  - apply box_neutral.
  - apply line_neutral.
  - apply chr_neutral.
  - apply (neutral_wrap n_figure), neutral_flat_map. induction kids; constructor; [apply item_neutral|assumption].
  - intros st. destruct (k =? 0); [reflexivity|]. destruct (k =? 1); reflexivity.
  - intros st. reflexivity.
Qed.
Fixpoint group_neutral (g : gtree) : neutral (group_tokens g).
Proof.
  destruct g as [id bb|bb kids]; cbn [group_tokens]; [intros st; reflexivity|].
  apply (neutral_wrap n_textgroup), neutral_flat_map. induction kids; constructor; [apply group_neutral|assumption].
Qed.
Lemma page_neutral strip p : neutral (page_tokens strip p).
Proof.
  unfold page_tokens. rewrite (app_assoc (flat_map _ _)). apply (neutral_wrap n_page), neutral_app.
  - apply neutral_flat_map_all, item_neutral.
  - destruct (pgroups p) as [gs|]; [|apply neutral_nil]. apply (neutral_wrap n_layout), neutral_flat_map_all, group_neutral.
Qed.
