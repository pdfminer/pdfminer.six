(* Page tree: the DFS equals the preorder/nearest-ancestor specification on honest
   trees, terminates on every finite store visiting each node once, and the selection
   loop equals the index filter. *)
From Coq Require Import ZArith List Bool Lia.
From PdfV Require Import Base.ListX Model.PageTree.
Import ListNotations.
Open Scope Z_scope.

Definition sel_pred {A} (pagenos : list nat) (maxpages : nat) (ip : nat * A) : bool :=
  ((match pagenos with [] => true | _ => false end) || memn (fst ip) pagenos)
  && (Nat.eqb maxpages 0 || Nat.ltb (fst ip) maxpages).

Lemma filter_beyond {A} (ps : list A) pagenos maxpages : forall i,
  maxpages <> 0%nat -> (maxpages <= i)%nat ->
  filter (sel_pred pagenos maxpages) (combine (seq i (length ps)) ps) = [].
Proof.
  induction ps as [|p r IH]; intros i Hm Hi; [reflexivity|].
  cbn [length seq combine filter]. unfold sel_pred at 1. cbn [fst].
  assert (E1 : Nat.eqb maxpages 0 = false) by (apply Nat.eqb_neq; exact Hm).
  assert (E2 : Nat.ltb i maxpages = false) by (apply Nat.ltb_ge; exact Hi).
  rewrite E1, E2. cbn [orb]. rewrite andb_false_r. apply IH; [exact Hm|lia].
Qed.

Lemma select_spec_from {A} (ps : list A) pagenos maxpages : forall i,
  (maxpages = 0%nat \/ (i < maxpages)%nat) ->
  select ps i pagenos maxpages
  = map snd (filter (sel_pred pagenos maxpages) (combine (seq i (length ps)) ps)).
Proof.
  induction ps as [|p r IH]; intros i Hinv; [reflexivity|].
  cbn [select length seq combine filter]. unfold sel_pred at 1. cbn [fst].
  replace (Nat.eqb maxpages 0 || Nat.ltb i maxpages) with true
    by (destruct Hinv as [->|H]; [reflexivity|symmetry; apply orb_true_iff; right; apply Nat.ltb_lt, H]).
  rewrite andb_true_r.
  (* the rest of the loop, broken off or not, selects what the filter selects further on *)
  replace (if negb (Nat.eqb maxpages 0) && Nat.leb maxpages (i + 1) then [] else select r (S i) pagenos maxpages)
    with (map snd (filter (sel_pred pagenos maxpages) (combine (seq (S i) (length r)) r))).
  - destruct ((match pagenos with [] => true | _ :: _ => false end) || memn i pagenos); reflexivity.
  - destruct (Nat.eqb_spec maxpages 0) as [E0|E0]; cbn [negb andb]; [symmetry; apply IH; left; exact E0|].
    destruct (Nat.leb_spec maxpages (i + 1)); [rewrite filter_beyond by lia; reflexivity|symmetry; apply IH; right; lia].
Qed.

Lemma memz_true_iff i l : memz i l = true <-> In i l.
Proof.
  induction l as [|x r IH]; cbn; [split; [discriminate|contradiction]|].
  rewrite orb_true_iff, IH, Z.eqb_eq. tauto.
Qed.
Lemma memz_false_iff i l : memz i l = false <-> ~ In i l.
Proof.
  rewrite <- memz_true_iff. destruct (memz i l); split; intros H; congruence.
Qed.

Section TreeInd.
  Variable P : tree -> Prop.
  Hypothesis HPage : forall i a, P (TPage i a).
  Hypothesis HPages : forall i a kids, Forall P kids -> P (TPages i a kids).
  Fixpoint tree_ind2 (t : tree) : P t :=
    match t with
    | TPage i a => HPage i a
    | TPages i a kids =>
        HPages i a kids ((fix go (l : list tree) : Forall P l :=
                            match l with [] => Forall_nil _ | k :: r => Forall_cons _ (tree_ind2 k) (go r) end) kids)
    end.
End TreeInd.

Lemma describes_kids st i a kids :
  describes st (TPages i a kids) ->
  ntyp (lookup st i) = NPages /\ nkids (lookup st i) = Some (map tid kids) /\
  nattrs (lookup st i) = a /\ Forall (describes st) kids.
Proof.
  cbn [describes]. intros (H1 & H2 & H3 & H4). repeat split; auto. apply Forall_fix, H4.
Qed.

Definition dfs_ok (st : store) (t : tree) : Prop :=
  forall fuel visited inh,
    (depth t <= fuel)%nat ->
    (forall i, In i (ids t) -> ~ In i visited) ->
    NoDup (ids t) ->
    dfs fuel st visited (tid t) inh = Some (spec_pages t inh, rev (ids t) ++ visited).

Lemma kids_loop_ok st fuel props : forall kids acc visited,
  Forall (dfs_ok st) kids ->
  Forall (fun k => (depth k <= fuel)%nat) kids ->
  (forall i, In i (flat_map ids kids) -> ~ In i visited) ->
  NoDup (flat_map ids kids) ->
  kids_loop (dfs fuel st) props (map tid kids) acc visited
  = Some (acc ++ flat_map (fun k => spec_pages k props) kids, rev (flat_map ids kids) ++ visited).
Proof.
  induction kids as [|k r IH]; intros acc visited Hok Hd Hdis Hnd.
  - cbn. rewrite app_nil_r. reflexivity.
  - inversion Hok as [|? ? Hk Hr]; subst. inversion Hd as [|? ? Hdk Hdr]; subst.
    cbn [map kids_loop flat_map] in *.
    pose proof (NoDup_app_r _ _ Hnd) as Hnd_r.
    pose proof (NoDup_app_l _ _ Hnd) as Hnd_k.
    rewrite (Hk fuel visited props Hdk).
    + rewrite IH; [| exact Hr | exact Hdr | | exact Hnd_r].
      * rewrite <- app_assoc. f_equal. f_equal. rewrite rev_app_distr, <- app_assoc. reflexivity.
      * intros i Hi Hin. apply in_app_or in Hin. destruct Hin as [Hin|Hin].
        -- apply in_rev in Hin. exact (NoDup_app_disj _ _ i Hnd Hin Hi).
        -- apply (Hdis i); [apply in_or_app; right; exact Hi|exact Hin].
    + intros i Hi. apply Hdis. apply in_or_app. left. exact Hi.
    + exact Hnd_k.
Qed.

Lemma max_fold_le (kids : list tree) m :
  (fold_right (fun k m => Nat.max (depth k) m) 0%nat kids <= m)%nat ->
  Forall (fun k => (depth k <= m)%nat) kids.
Proof.
  induction kids as [|k r IH]; intros H; [constructor|].
  cbn [fold_right] in H. constructor; [lia|]. apply IH. lia.
Qed.

Theorem dfs_tree st : forall t, describes st t -> dfs_ok st t.
Proof.
  induction t as [i a|i a kids IH] using tree_ind2; intros Hdesc fuel visited inh Hfuel Hdis Hnd;
    (destruct fuel as [|f]; [cbn in Hfuel; lia|]); cbn [dfs tid];
    replace (memz i visited) with false by (symmetry; apply memz_false_iff, Hdis; left; reflexivity).
  - destruct Hdesc as [-> ->]. destruct (nkids (lookup st i)); reflexivity.
  - apply describes_kids in Hdesc. destruct Hdesc as (-> & -> & -> & Hkids).
    cbn [ids] in Hnd. inversion Hnd as [|? ? Hni Hnd']; subst.
    rewrite kids_loop_ok.
    + cbn [spec_pages ids rev app]. rewrite <- app_assoc. reflexivity.
    + rewrite Forall_forall in *. intros k Hin. apply IH; [exact Hin|]. apply Hkids. exact Hin.
    + apply max_fold_le. cbn [depth] in Hfuel. lia.
    + intros j Hj [<-|Hin]; [exact (Hni Hj)|]. apply (Hdis j); [right; exact Hj|exact Hin].
    + exact Hnd'.
Qed.

Definition unvisited (st : store) (v : list Z) : nat :=
  length (filter (fun kn => negb (memz (fst kn) v)) st).

Lemma unvisited_mono st v v' : (forall x, In x v -> In x v') -> (unvisited st v' <= unvisited st v)%nat.
Proof.
  intros H. apply filter_length_le. intros [k n] Hx. cbn [fst] in *. apply negb_true_iff. apply negb_true_iff in Hx.
  apply memz_false_iff. apply memz_false_iff in Hx. auto.
Qed.

Lemma lookup_in st i : lookup st i <> empty_node -> exists n, In (i, n) st.
Proof.
  induction st as [|[k n] r IH]; cbn; [congruence|].
  destruct (Z.eqb_spec k i) as [->|E]; [eauto|]. intros H. destruct (IH H) as [n' Hn]. eauto.
Qed.

Lemma unvisited_visit st v i n : In (i, n) st -> ~ In i v -> (unvisited st (i :: v) < unvisited st v)%nat.
Proof.
  intros Hin Hv. apply memz_false_iff in Hv.
  apply (filter_length_lt _ _ st (i, n) Hin); cbn [fst memz]; [rewrite Z.eqb_refl; reflexivity|rewrite Hv; reflexivity|].
  intros x Hx. rewrite negb_orb in Hx. apply andb_true_iff in Hx. apply Hx.
Qed.

(* what one DFS call guarantees *)
Definition dfs_post (visited : list Z) (ps : list (Z * attrs)) (v' : list Z) : Prop :=
  (forall x, In x visited -> In x v') /\
  NoDup (map fst ps) /\
  (forall p, In p ps -> ~ In (fst p) visited /\ In (fst p) v').

Lemma post_same visited : dfs_post visited [] visited.
Proof. unfold dfs_post. split; [auto|]. split; [constructor|]. intros q []. Qed.
Lemma post_one visited i a : ~ In i visited -> dfs_post visited [(i, a)] (i :: visited).
Proof.
  intros Hv. unfold dfs_post. split; [intros y Hy; right; exact Hy|]. split.
  - cbn. constructor; [intros []|constructor].
  - intros q [<-|[]]. cbn. split; [exact Hv|left; reflexivity].
Qed.
(* a node marked before the call may be forgotten afterwards *)
Lemma post_skip visited i ps v' : dfs_post (i :: visited) ps v' -> dfs_post visited ps v'.
Proof.
  intros (S & N & P). split; [intros x Hx; apply S; right; exact Hx|]. split; [exact N|].
  intros p Hp. destruct (P p Hp) as [Hn Hi]. split; [intros Hc; apply Hn; right; exact Hc|exact Hi].
Qed.
Lemma post_app v p1 v1 p2 v2 : dfs_post v p1 v1 -> dfs_post v1 p2 v2 -> dfs_post v (p1 ++ p2) v2.
Proof.
  intros (S1 & N1 & P1) (S2 & N2 & P2). split; [intros x Hx; apply S2, S1, Hx|]. split.
  - rewrite map_app. apply NoDup_app_intro; [exact N1|exact N2|]. intros x H1 H2.
    apply in_map_iff in H1, H2. destruct H1 as (q1 & <- & Hq1), H2 as (q2 & E & Hq2).
    apply (proj1 (P2 q2 Hq2)). rewrite E. exact (proj2 (P1 q1 Hq1)).
  - intros p Hp. apply in_app_or in Hp. destruct Hp as [Hp|Hp].
    + destruct (P1 p Hp). split; [assumption|apply S2; assumption].
    + destruct (P2 p Hp) as [Hn Hi]. split; [intros Hc; apply Hn, S1, Hc|exact Hi].
Qed.

Lemma kids_loop_total st f props :
  (forall visited i, (unvisited st visited < f)%nat ->
     exists ps v', dfs f st visited i props = Some (ps, v') /\ dfs_post visited ps v') ->
  forall kids acc visited, (unvisited st visited < f)%nat ->
    exists ps v', kids_loop (dfs f st) props kids acc visited = Some (acc ++ ps, v') /\ dfs_post visited ps v'.
Proof.
  intros Hrec kids. induction kids as [|k r IH]; intros acc visited Hf.
  - exists [], visited. rewrite app_nil_r. split; [reflexivity|apply post_same].
  - cbn [kids_loop]. destruct (Hrec visited k Hf) as (ps & v' & -> & Hp).
    destruct (IH (acc ++ ps) v') as (ps2 & v2 & -> & Hp2); [pose proof (unvisited_mono st visited v' (proj1 Hp)); lia|].
    exists (ps ++ ps2), v2. rewrite app_assoc. split; [reflexivity|exact (post_app _ _ _ _ _ Hp Hp2)].
Qed.

Theorem dfs_total st : forall fuel visited i parent,
  (unvisited st visited < fuel)%nat ->
  exists ps v', dfs fuel st visited i parent = Some (ps, v') /\ dfs_post visited ps v'.
Proof.
  induction fuel as [|f IH]; intros visited i parent Hf; [lia|].
  cbn [dfs]. destruct (memz i visited) eqn:Hv.
  - exists [], visited. split; [reflexivity|apply post_same].
  - apply memz_false_iff in Hv.
    destruct (ntyp (lookup st i)) eqn:Ht.
    + exists [(i, inherit (nattrs (lookup st i)) parent)], (i :: visited).
      split; [destruct (nkids (lookup st i)); reflexivity|apply post_one; exact Hv].
    + destruct (nkids (lookup st i)) as [kids|] eqn:Hk.
      * destruct (lookup_in st i) as [n Hin]; [intros E; rewrite E in Ht; discriminate|].
        pose proof (unvisited_visit st visited i n Hin Hv) as Hlt.
        destruct (kids_loop_total st f (inherit (nattrs (lookup st i)) parent)
                    (fun v k Hfk => IH v k _ Hfk) kids [] (i :: visited)) as (ps & v' & E & Hpost); [lia|].
        exists ps, v'. split; [exact E|exact (post_skip _ _ _ _ Hpost)].
      * exists [], (i :: visited). split; [reflexivity|apply post_skip with i, post_same].
    + exists [], (i :: visited). split; [destruct (nkids (lookup st i)); reflexivity|apply post_skip with i, post_same].
Qed.

