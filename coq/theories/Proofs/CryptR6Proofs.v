(* Algorithm 2.B: the selector is the big-endian number modulo 3; the loop always ends, after 64..288 rounds, at the
   first round n >= 64 whose last byte is at most n - 32. *)
From Coq Require Import ZArith List Bool Lia.
From PdfV Require Import Model.Crypt Model.CryptR6.
Open Scope Z_scope.

(* 256 = 1 modulo 3, so a big-endian numeral and its digit sum stay congruent digit by digit *)
Lemma mod3_folds l : forall a a', a mod 3 = a' mod 3 ->
  fold_left (fun a c => a * 256 + c) l a mod 3 = fold_left (fun a b => a + b mod 3) l a' mod 3.
Proof.
  induction l as [|b l IH]; intros a a' H; [exact H|]. cbn [fold_left]. apply IH.
  Z.to_euclidean_division_equations. lia.
Qed.

Section R6.
  Variable sha256 sha384 sha512 : bytes -> bytes.
  Variable aes_rep : bytes -> bytes -> bytes -> bytes.
  Hypothesis aes_bytes : forall k iv d, Forall (fun b => 0 <= b <= 255) (aes_rep k iv d).

  Lemma last_byte_range (l : bytes) : Forall (fun b => 0 <= b <= 255) l -> 0 <= last l 0 <= 255.
  Proof.
    induction l as [|b l IH]; intros H; cbn [last]; [lia|].
    inversion H as [|? ? Hb Hl]; subst. destruct l as [|c l']; [exact Hb | apply IH; exact Hl].
  Qed.

  Lemma round_last pw vec k : 0 <= snd (r6_round sha256 sha384 sha512 aes_rep pw vec k) <= 255.
  Proof. unfold r6_round. cbn [snd]. apply last_byte_range. apply aes_bytes. Qed.

  (* the loop never runs out of fuel: after round n it goes on only if the last byte exceeds n - 32, and a byte is at
     most 255, so the 286th round is the last that can ask for another (the bound 288 below is not tight) *)
  Lemma r6_loop_ends fuel : forall pw vec k rn lb, rn <= 288 -> lb <= 255 -> 289 - rn <= Z.of_nat fuel ->
    exists out n, r6_loop sha256 sha384 sha512 aes_rep fuel pw vec k rn lb = Some (out, n) /\ rn <= n /\ 64 <= n <= 288.
  Proof.
    induction fuel as [|f IH]; intros pw vec k rn lb Hrn Hlb Hf; [lia|].
    cbn [r6_loop]. destruct ((rn <? 64) || (rn - 32 <? lb)) eqn:C.
    - pose proof (round_last pw vec k) as Hl.
      destruct (r6_round sha256 sha384 sha512 aes_rep pw vec k) as [k' l']. cbn [snd] in Hl.
      destruct (IH pw vec k' (rn + 1) l') as (out & n & E & Hn); try lia. exists out, n. split; [exact E|lia].
    - exists (firstn 32 k), rn. split; [reflexivity|lia].
  Qed.

  (* the ISO formulation: K_0 = SHA-256(password ++ salt ++ vector); round i (counted from 1) turns K_(i-1) into K_i
     and has a last byte; the result is K_n[:32] for the FIRST n >= 64 with last byte of round n <= n - 32 *)
  Fixpoint k_seq (pw vec k0 : bytes) (i : nat) : bytes * Z :=
    match i with
    | O => (k0, 0)
    | S j => r6_round sha256 sha384 sha512 aes_rep pw vec (fst (k_seq pw vec k0 j))
    end.
  Definition stops (pw vec k0 : bytes) (i : nat) : Prop :=
    64 <= Z.of_nat i /\ snd (k_seq pw vec k0 i) <= Z.of_nat i - 32.

  (* the loop invariant: at round i the loop holds K_i, i and the last byte of round i *)
  Lemma r6_loop_iso fuel : forall pw vec k0 i out n,
    r6_loop sha256 sha384 sha512 aes_rep fuel pw vec (fst (k_seq pw vec k0 i)) (Z.of_nat i) (snd (k_seq pw vec k0 i)) = Some (out, n) ->
    exists m, n = Z.of_nat m /\ (i <= m)%nat /\ out = firstn 32 (fst (k_seq pw vec k0 m)) /\ stops pw vec k0 m /\
              forall j, (i <= j < m)%nat -> ~ stops pw vec k0 j.
  Proof.
    induction fuel as [|f IH]; intros pw vec k0 i out n H; [discriminate|].
    cbn [r6_loop] in H.
    destruct ((Z.of_nat i <? 64) || (Z.of_nat i - 32 <? snd (k_seq pw vec k0 i))) eqn:C.
    - change (r6_round sha256 sha384 sha512 aes_rep pw vec (fst (k_seq pw vec k0 i))) with (k_seq pw vec k0 (S i)) in H.
      specialize (IH pw vec k0 (S i) out n). rewrite Nat2Z.inj_succ in IH. unfold Z.succ in IH.
      destruct (k_seq pw vec k0 (S i)) as [k' l']. destruct (IH H) as (m & Hn & Hle & Hout & Hs & Hmin).
      exists m. refine (conj Hn (conj _ (conj Hout (conj Hs _)))); [lia|].
      intros j Hj. destruct (Nat.eq_dec j i) as [->|Hne]; [unfold stops; lia|apply Hmin; lia].
    - injection H as <- <-. exists i. unfold stops. repeat split; lia.
  Qed.

End R6.
