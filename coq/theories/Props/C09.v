(* C09 -- Layout grouping follows the documented margins; result is scale-invariant.
   The rule theorems unfold the definitions of Model/Layout.v (see Props/C08.v); the scale theorems are derived from
   Proofs/LayoutScaleProofs.v.  The scale theorem covers the stage that is pure
   arithmetic (glyphs -> lines, word spaces) for EVERY positive rational factor; for the later stages, whose member
   order can depend on the fixed 50-unit grid of the spatial index, the harness checks powers of two. *)
From Coq Require Import QArith List.
From PdfV Require Import Base.Num Model.Layout Proofs.LayoutScaleProofs.
Import ListNotations.
Open Scope Q_scope.

(* two glyphs are horizontally aligned exactly when their boxes overlap vertically by MORE than line_overlap times
   the smaller height and are closer than char_margin times the larger width *)
Theorem C09_halign_rule : forall p a b,
  halign p a b = true <->
  is_voverlap a b = true /\ qmin (height a) (height b) * line_overlap p < voverlap a b /\
  hdistance a b < qmax (width a) (width b) * char_margin p.
Proof. intros p a b. unfold halign. rewrite !andb_true_iff, !Qltb_lt. tauto. Qed.
Theorem C09_valign_rule : forall p a b,
  valign p a b = true <->
  detect_vertical p = true /\ is_hoverlap a b = true /\ qmin (width a) (width b) * line_overlap p < hoverlap a b /\
  vdistance a b < qmax (height a) (height b) * char_margin p.
Proof. intros p a b. unfold valign. rewrite !andb_true_iff, !Qltb_lt. tauto. Qed.

(* consecutive glyphs are joined exactly when aligned *)
Theorem C09_joined_iff : forall p g0 g1 l r, is_h l = true ->
  go_loop p g0 (Some l) (g1 :: r) =
    if halign p (gbox g0) (gbox g1) then go_loop p g1 (Some (line_add p l g1)) r else l :: go_loop p g1 None r.
Proof.
  intros p g0 g1 l r Hh. cbn [go_loop]. rewrite Hh. cbn [negb]. rewrite andb_true_r, andb_false_r, orb_false_r. reflexivity.
Qed.
Theorem C09_pair_joined_iff : forall p g0 g1 r, detect_vertical p = false ->
  go_loop p g0 None (g1 :: r) =
    if halign p (gbox g0) (gbox g1) then go_loop p g1 (Some (line_add p (line_add p (new_line OH) g0) g1)) r
    else line_add p (new_line OH) g0 :: go_loop p g1 None r.
Proof.
  intros p g0 g1 r Hd. cbn [go_loop]. unfold valign. rewrite Hd. cbn [andb negb]. rewrite andb_true_r. reflexivity.
Qed.

(* a space exactly when the gap exceeds word_margin (relative to the new glyph's larger side) *)
Theorem C09_space_rule : forall p l g x1, lori l = OH -> llast l = Some x1 ->
  needs_space p l g = true <->
  ~ word_margin p == 0 /\ x1 < bx0 (gbox g) - word_margin p * qmax (width (gbox g)) (height (gbox g)).
Proof.
  intros p l g x1 Ho Hl. unfold needs_space, nonzero. rewrite Ho, Hl, andb_true_iff, Qltb_lt, negb_true_iff.
  rewrite <- Qeq_bool_iff, not_true_iff_false. reflexivity.
Qed.
Theorem C09_first_glyph_no_space : forall p o g, needs_space p (new_line o) g = false.
Proof. intros p o g. unfold needs_space, new_line. cbn [lori llast]. destruct o; apply andb_false_r. Qed.

(* the alignment tests do not see a scaling of the page by k > 0 *)
Theorem C09_alignment_scale_free : forall k, 0 < k -> forall p a b,
  halign p (sb k a) (sb k b) = halign p a b /\ valign p (sb k a) (sb k b) = valign p a b.
Proof. intros k Hk p a b. split; [exact (halign_scale k Hk p a b)|exact (valign_scale k Hk p a b)]. Qed.
(* ... and so scaling leaves the lines and their spaces unchanged *)
Theorem C09_lines_scale_invariant : forall k, 0 < k -> forall p gs,
  group_objects p (map (sg k) gs) = map (sl k) (group_objects p gs).
Proof.
  intros k Hk p [|g r]; [reflexivity|]. unfold group_objects. cbn [map]. exact (go_loop_scale k Hk p r g None).
Qed.

Print Assumptions C09_halign_rule.
Print Assumptions C09_valign_rule.
Print Assumptions C09_joined_iff.
Print Assumptions C09_pair_joined_iff.
Print Assumptions C09_space_rule.
Print Assumptions C09_first_glyph_no_space.
Print Assumptions C09_alignment_scale_free.
Print Assumptions C09_lines_scale_invariant.

(* non-vacuity: a gap just below / just above the word margin *)
Example C09_ex :
  let p := mkLA (1 # 2) 2 (1 # 2) (1 # 8) (Some (1 # 2)) false in
  let g i x0 x1 := mkG i (x0, 100, x1, 108) [97%Z] in
  map line_text (group_objects p [g 0%nat 10 18; g 1%nat 19 27]) = [[97; 97]%Z] /\
  map line_text (group_objects p [g 0%nat 10 18; g 1%nat (153 # 8) (217 # 8)]) = [[97; 32; 97]%Z].
Proof. vm_compute. split; reflexivity. Qed.
