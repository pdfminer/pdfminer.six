(* C06 -- Simple fonts: code -> Unicode / width follow encoding, glyph names, ToUnicode.
   Each theorem is derived in a few lines from the lemmas of Proofs/FontProofs.v, by unfolding the model's definition,
   or (the table facts) by computation.  Model/Fonts.v mirrors encodingdb.name2unicode / EncodingDB and
   pdffont.PDFSimpleFont / PDFType1Font / PDFType3Font / PDFFont.char_width; the glyph list, the four base
   encodings' rows and the standard-14 widths are regenerated from the source on every run (Gen/FontTables.v). *)
From Coq Require Import QArith List Lia.
From PdfV Require Import Gen.FontTables Model.Fonts Proofs.FontProofs.
Import ListNotations.
Open Scope Z_scope.

Theorem C06_listed : forall name v, assoc name GLYPHLIST = Some v -> n2u_component name = Some v.
Proof. intros name v H. rewrite n2u_component_eq, H. reflexivity. Qed.

(* "uni" + k >= 1 groups of four hexadecimal digits: the k code points; no value when one is a surrogate *)
Theorem C06_uni : forall gs, gs <> [] -> Forall (fun g => length g = 4%nat /\ forallb is_hex g = true) gs ->
  n2u_component (s_uni ++ concat gs) = if existsb bad_unicode (map hexnum gs) then None else Some (map hexnum gs).
Proof.
  intros gs Hne Hg. pose proof (uni_form_groups gs Hne Hg) as Hf. apply Forall_and_inv in Hg as [H4 _].
  rewrite n2u_component_eq, form_not_listed, Hf by (rewrite Hf; reflexivity).
  change (skipn 3 (s_uni ++ concat gs)) with (concat gs). change (u_form (s_uni ++ concat gs)) with false.
  rewrite chunks4_concat; [reflexivity|exact H4|lia].
Qed.

(* "u" + 4..6 hexadecimal digits: that code point; no value for surrogates and above 10FFFF *)
Theorem C06_u : forall d, forallb is_hex d = true -> (4 <= length d <= 6)%nat ->
  n2u_component (117 :: d) = if bad_unicode (hexnum d) then None else Some [hexnum d].
Proof.
  intros d Hh Hl. pose proof (u_form_digits d Hh Hl) as Hf.
  rewrite n2u_component_eq, form_not_listed, Hf by (rewrite Hf; apply orb_true_r). reflexivity.
Qed.

(* nothing else has a value: wrong digit counts, non-hexadecimal characters, repeated prefixes, ... *)
Theorem C06_otherwise : forall name, assoc name GLYPHLIST = None -> uni_form name = false -> u_form name = false ->
  n2u_component name = None.
Proof. intros name Hl Hu Hv. rewrite n2u_component_eq, Hl, Hu, Hv. reflexivity. Qed.

(* the numeral: most significant digit first, value in [0, 16^n) *)
Theorem C06_hex_value : forall a b c d, hexnum [a; b; c; d] = 4096 * hexval a + 256 * hexval b + 16 * hexval c + hexval d.
Proof. intros a b c d. unfold hexnum. cbn [fold_left]. ring. Qed.
Theorem C06_hex_range : forall s, forallb is_hex s = true -> 0 <= hexnum s < 16 ^ Z.of_nat (length s).
Proof. intros s H. pose proof (hexnum_acc_bound s 0 H) as B. unfold hexnum. cbv zeta in B. lia. Qed.

(* whole names: a dot suffix is dropped *)
Theorem C06_suffix_dropped : forall comp s, free_of 46 comp = true -> free_of 95 comp = true -> dot_suffix s ->
  name2unicode (comp ++ s) = n2u_component comp.
Proof.
  intros comp s Hd Hu Hs. change comp with (join 95 [comp]) at 1.
  rewrite name_of_components; [reflexivity|discriminate| | |exact Hs]; (constructor; [assumption|constructor]).
Qed.

(* two or more underscore-joined components: the components' values combined by concat_opt *)
Theorem C06_components : forall comps s, (2 <= length comps)%nat ->
  Forall (fun c => free_of 46 c = true) comps -> Forall (fun c => free_of 95 c = true) comps -> dot_suffix s ->
  name2unicode (join 95 comps ++ s) = concat_opt (map n2u_component comps).
Proof.
  intros comps s Hl Hd Hu Hs. rewrite name_of_components by (auto; intros ->; cbn in Hl; lia).
  destruct (Nat.ltb_spec 1 (length comps)); [reflexivity|lia].
Qed.

(* which text a code gets: ToUnicode, else the encoding, else the placeholder *)
Theorem C06_tounicode_wins : forall f m code s, ftounicode f = Some m -> zassoc code m = Some s -> to_unichr f code = Some s.
Proof. intros f m code s H1 H2. unfold to_unichr. rewrite H1, H2. reflexivity. Qed.
Theorem C06_tounicode_miss : forall f m code, ftounicode f = Some m -> zassoc code m = None -> to_unichr f code = cid2unicode f code.
Proof. intros f m code H1 H2. unfold to_unichr. rewrite H1, H2. reflexivity. Qed.
Theorem C06_no_tounicode : forall f code, ftounicode f = None -> to_unichr f code = cid2unicode f code.
Proof. intros f code H1. unfold to_unichr. rewrite H1. reflexivity. Qed.
Theorem C06_placeholder : forall f code, to_unichr f code = None ->
  char_text f code = [40; 99; 105; 100; 58] ++ decimal code ++ [41].
Proof. exact placeholder. Qed.
(* which code map: explicit /Encoding, else the embedded program's (Type 1 with a FontFile), else Standard *)
Theorem C06_encoding_source : forall f code,
  cid2unicode f code =
    match fenc f with
    | Some (nm, diff) => get_encoding nm diff code
    | None => match fkind_ f, fbuiltin f with
              | KType1, Some items => builtin_get items code None
              | _, _ => enc_base EStd code
              end
    end.
Proof.
  intros f code.
  unfold cid2unicode. destruct (fenc f) as [[nm diff]|]; [reflexivity|].
  destruct (fkind_ f); [destruct (fbuiltin f)|]; reflexivity.
Qed.

(* Differences (ISO 32000-1 Table 114): the value of the LAST name assigned to the code (no value if that name has
   none), and the base encoding's entry for every code the array does not assign *)
Theorem C06_differences : forall nm diff code,
  get_encoding nm diff code =
    match last_assigned code (assignments diff 0) None with
    | Some n => name2unicode_obj n
    | None => enc_base (sel_of_name nm) code
    end.
Proof.
  intros nm diff code.
  unfold get_encoding. rewrite diff_loop_spec. cbn [ov_get].
  destruct (last_assigned code (assignments diff 0) None); reflexivity.
Qed.
Theorem C06_differences_run : forall k c names,
  assignments (DInt c :: map DName names) k = combine (map (fun i => c + Z.of_nat i) (seq 0 (length names))) names.
Proof. intros k c names. cbn [assignments]. apply assignments_names. Qed.

Theorem C06_width_widths : forall f l code w, fwidths f = Some l -> 0 <= code - ffirst f ->
  nth_error l (Z.to_nat (code - ffirst f)) = Some (WNum w) -> char_width f code = (w * hscale f)%Q.
Proof.
  intros f l code w Hw Hi Hn. rewrite (char_width_widths f l code Hw), Hn.
  destruct (Z.ltb_spec (code - ffirst f) 0); [lia|reflexivity].
Qed.
Theorem C06_width_missing : forall f l code, fwidths f = Some l ->
  (code - ffirst f < 0 \/ nth_error l (Z.to_nat (code - ffirst f)) = None \/ nth_error l (Z.to_nat (code - ffirst f)) = Some WBad) ->
  char_width f code = (match fdescriptor f with Some (mw, _) => mw | None => 0%Q end * hscale f)%Q.
Proof.
  intros f l code Hw H. rewrite (char_width_widths f l code Hw).
  destruct (Z.ltb_spec (code - ffirst f) 0); [reflexivity|].
  destruct H as [H|[H|H]]; [lia|rewrite H; reflexivity|rewrite H; reflexivity].
Qed.
(* standard-14 font without Widths: the AFM width of the code's character, 0 when it has none *)
Theorem C06_width_std14 : forall f n m code, fkind_ f = KType1 -> basefont f = Some n ->
  assoc (match assoc n FONT_ALIASES with Some t => t | None => n end) FONT_METRICS = Some m -> fwidths f = None ->
  char_width f code =
    match to_unichr f code with
    | Some s => match assoc s m with Some w => (inject_Z w * (1 # 1000))%Q | None => 0%Q end
    | None => 0%Q
    end.
Proof.
  intros f n m code Hk Hb Hm Hw. unfold char_width, uses_std14, std14_metrics, hscale.
  rewrite Hk, Hb, Hm, Hw. reflexivity.
Qed.
Theorem C06_scale_type3 : forall f, fkind_ f = KType3 -> hscale f = fmatrix_a f.
Proof. intros f H. unfold hscale. rewrite H. reflexivity. Qed.
Theorem C06_scale_other : forall f, fkind_ f = KType1 -> hscale f = (1 # 1000)%Q.
Proof. intros f H. unfold hscale. rewrite H. reflexivity. Qed.

(* the shipped tables: finite facts, by computation over the generated tables *)
Theorem C06_glyphlist_never_shadows_grammar : forallb (fun e => negb (uni_form (fst e) || u_form (fst e))) GLYPHLIST = true.
Proof. exact glyphlist_no_forms. Qed.
(* every name used by the four base encodings has a Unicode value (the class body cannot raise) *)
Theorem C06_encoding_rows_mapped : forallb (fun r => is_some (name2unicode (fst r))) ENCODING = true.
Proof. vm_compute. reflexivity. Qed.
(* no glyph list value contains a surrogate or a code point above 10FFFF *)
Theorem C06_glyphlist_values_ok : forallb (fun e => negb (existsb bad_unicode (snd e))) GLYPHLIST = true.
Proof. vm_compute. reflexivity. Qed.

Print Assumptions C06_listed.
Print Assumptions C06_uni.
Print Assumptions C06_u.
Print Assumptions C06_otherwise.
Print Assumptions C06_hex_value.
Print Assumptions C06_hex_range.
Print Assumptions C06_suffix_dropped.
Print Assumptions C06_components.
Print Assumptions C06_tounicode_wins.
Print Assumptions C06_tounicode_miss.
Print Assumptions C06_no_tounicode.
Print Assumptions C06_placeholder.
Print Assumptions C06_encoding_source.
Print Assumptions C06_differences.
Print Assumptions C06_differences_run.
Print Assumptions C06_width_widths.
Print Assumptions C06_width_missing.
Print Assumptions C06_width_std14.
Print Assumptions C06_scale_type3.
Print Assumptions C06_scale_other.
Print Assumptions C06_glyphlist_never_shadows_grammar.
Print Assumptions C06_encoding_rows_mapped.
Print Assumptions C06_glyphlist_values_ok.

(* the model evaluated on concrete names and a concrete font *)
Example C06_ex_uni : name2unicode [117;110;105;50;48;65;67;48;51;48;56] = Some [8364; 776].   (* uni20AC0308 *)
Proof. vm_compute. reflexivity. Qed.
Example C06_ex_compound : name2unicode [102;95;102;95;105;46;97;108;116] = Some [102; 102; 105].   (* f_f_i.alt *)
Proof. vm_compute. reflexivity. Qed.
Example C06_ex_surrogate : name2unicode [117;68;56;48;48] = None.   (* uD800 *)
Proof. vm_compute. reflexivity. Qed.
Example C06_ex_font :
  let f := mkFont KType1 (Some [70;111;111]) (Some (s_WinAnsiEncoding, [DInt 65; DName (Some [66]); DName (Some [102;111;111])]))
                  (Some [(67, [8226])]) (Some (500 # 1, None)) (Some [WNum (600 # 1); WBad]) 65 (1 # 1000) in
  map (char_text f) [65; 66; 67; 68] = [[66]; [40;99;105;100;58;54;54;41]; [8226]; [68]] /\
  map (fun c => Qred (char_width f c)) [65; 66; 67] = [3 # 5; 1 # 2; 1 # 2]%Q.
Proof. vm_compute. split; reflexivity. Qed.
