(* C13 -- Damaged input: errors stay in the library's family and work stays bounded.
   Theorems about the guards that bound the work, each a few lines from Proofs/GuardProofs.v (Model/Guards.v mirrors
   pdftypes.resolve1, the path-guarded descents of do_Do / NumberTree._parse / lookup_name, the chain of cross-reference
   sections of read_xref_from, and the range limits of CMapParser and get_widths); termination of the page-tree walk and of
   layout analysis are C04 and C08; the outline search is proved on honest forests only (C17).  Which exception CLASSES
   escape is not a theorem about a model: the harness enumerates single structural faults over seed documents and classifies
   every outcome. *)
From Coq Require Import ZArith List Lia.
From PdfV Require Import Model.Guards Proofs.GuardProofs.
Import ListNotations.
Open Scope Z_scope.

Theorem C13_resolve_follows : forall st d x n v, chain st x n v -> (n <= 100)%nat -> resolve1 st d x = OVal v.
Proof. intros st d x n v H Hn. apply (resolve_go_chain st d n); [exact H|unfold MAX_REFERENCE_CHAIN; lia]. Qed.
(* a store in which every reference leads to a reference, so to a cycle of whatever length: the default after a bounded
   number of hops, never a hang (GuardProofs.resolve_go_cycle: the same for any closed set of references in any store) *)
Theorem C13_resolve_cycle : forall st d, (forall i, exists j, st i = Some (ORef j)) -> forall i, resolve1 st d (ORef i) = d.
Proof.
  intros st d Hc i. apply (resolve_go_cycle st d (fun _ => True)); [|exact I].
  intros k _. destruct (Hc k) as [j E]. eauto.
Qed.

(* guarded descents (forms drawing forms, Kids of number and name trees) terminate on every finite object graph,
   cyclic or not, within a recursion depth of one more than the number of objects *)
Theorem C13_descent_terminates : forall kids U, (forall n, In n U -> incl (kids n) U) ->
  forall fuel path n, NoDup path -> incl path U -> In n U ->
  (length U - length path < fuel)%nat -> exists r, descend kids fuel path n = Some r.
Proof. exact descend_terminates. Qed.
Theorem C13_descent_total : forall kids U, (forall n, In n U -> incl (kids n) U) ->
  forall n, In n U -> exists r, descend kids (S (length U)) [] n = Some r.
Proof.
  intros kids U closed n Hn.
  apply (descend_terminates kids U closed); [constructor|intros x []|exact Hn|cbn [length]; lia].
Qed.

(* the chain of cross-reference sections (/XRefStm, then /Prev, from startxref): on ANY graph of links between a finite
   set of sections the reader terminates within a recursion depth of one more than their number, reads no section
   twice, and reads nothing it was not sent to *)
Theorem C13_xref_chain_terminates : forall links U, (forall n, In n U -> incl (links n) U) ->
  forall fuel vis start, In start U -> (unv U vis < fuel)%nat ->
  exists res, xread links fuel vis start = Some res /\ good U vis res.
Proof. exact xread_terminates. Qed.
Theorem C13_xref_chain_total : forall links U, (forall n, In n U -> incl (links n) U) ->
  forall start, In start U -> exists vis o, xread links (S (length U)) [] start = Some (vis, o) /\ NoDup o /\ incl o U.
Proof.
  intros links U closed start Hs.
  destruct (xread_terminates links U closed (S (length U)) [] start Hs) as ([vis o] & E & (_ & N & _ & _ & I)).
  - apply Nat.lt_succ_r, PdfV.Base.ListX.filter_length_all.
  - exists vis, o. auto.
Qed.

(* no range is expanded into more than 65536 steps, and legitimate ranges are not shortened *)
Theorem C13_cmap_range_bounded : forall s e, 0 <= cmap_range_steps s e <= 65536.
Proof. intros s e. unfold cmap_range_steps, MAX_RANGE. lia. Qed.
Theorem C13_width_range_bounded : forall c1 c2, 0 <= width_range_steps c1 c2 <= 65536.
Proof. intros c1 c2. unfold width_range_steps. lia. Qed.
Theorem C13_cmap_range_exact : forall s e, s <= e -> e - s < 65536 -> cmap_range_steps s e = e - s + 1.
Proof. intros s e. unfold cmap_range_steps, MAX_RANGE. lia. Qed.
Theorem C13_width_range_exact : forall c1 c2, 0 <= c1 <= c2 -> c2 <= 65535 -> width_range_steps c1 c2 = c2 - c1 + 1.
Proof. intros c1 c2. unfold width_range_steps. lia. Qed.

Print Assumptions C13_resolve_follows.
Print Assumptions C13_resolve_cycle.
Print Assumptions C13_descent_terminates.
Print Assumptions C13_descent_total.
Print Assumptions C13_cmap_range_bounded.
Print Assumptions C13_width_range_bounded.
Print Assumptions C13_xref_chain_terminates.
Print Assumptions C13_xref_chain_total.
Print Assumptions C13_cmap_range_exact.
Print Assumptions C13_width_range_exact.

(* non-vacuity: a two-cycle of references, and a form graph with a cycle *)
Example C13_ex :
  resolve1 (fun i => if i =? 9 then Some (ORef 10) else if i =? 10 then Some (ORef 9) else None) (OVal 0) (ORef 9) = OVal 0 /\
  descend (fun n => if n =? 1 then [2; 3] else if n =? 2 then [1; 3] else []) 4 [] 1 = Some [1; 2; 3; 3] /\
  (* three sections: 900 -> (XRefStm 700, Prev 500), 700 -> Prev 900 (a cycle), 500 -> Prev 500 (itself) *)
  xread (fun n => if n =? 900 then [700; 500] else if n =? 700 then [900] else if n =? 500 then [500] else []) 4 [] 900
  = Some ([500; 700; 900], [900; 700; 500]).
Proof. vm_compute. repeat split; reflexivity. Qed.
