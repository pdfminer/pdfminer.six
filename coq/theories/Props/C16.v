(* C16 -- Painted paths become shapes with the right points, class and graphics state.
   Each theorem follows in a few lines from Proofs/PathProofs.v or by computation on the model (Model/Interp.v: path, paint
   and colour operators; Model/PathPaint.v:
   PDFLayoutAnalyzer.paint_path and the LTLine / LTRect / LTCurve constructors).
   q/Q restoring the graphics state is C05_qQ_restores (same model).  Known finding C16-csreset:
   cs/CS keep the previous colour (the model mirrors that; the harness oracle applies ISO). *)
From Coq Require Import QArith List Lqa.
From PdfV Require Import Base.Num Gen.Geom Model.Interp Model.PathPaint
  Proofs.PathProofs.
Import ListNotations.

(* paths ended -- painted or not -- leave no residue for the next path *)
Theorem C16_no_residue : forall res run_form k s, path_ender k = true ->
  curpath (apply_op res run_form k [] s) = [].
Proof. intros res run_form k s. destruct k; try discriminate; intros _; reflexivity. Qed.

(* a path of k subpaths with at least one segment each: exactly k shapes, subpath by subpath *)
Theorem C16_one_shape_per_subpath : forall g st fi eo c subs, Forall subpath_ok subs -> subs <> [] ->
  paint_path g st fi eo c (concat subs) = flat_map (paint_single g st fi eo c) subs /\
  length (paint_path g st fi eo c (concat subs)) = length subs.
Proof. exact one_shape_per_subpath. Qed.

(* every shape carries the paint flags and the graphics state handed to paint_path ... *)
Theorem C16_state : forall g st fi eo c path,
  Forall (fun sh => sstroke sh = st /\ sfill sh = fi /\ sevenodd sh = eo /\ slinewidth sh = glinewidth g /\
                    sdash sh = gdash g /\ sscolor sh = gscolor g /\ sncolor sh = gncolor g)
         (paint_path g st fi eo c path).
Proof.
  intros g st fi eo c path. apply paint_path_Forall. intros [|s r]; [constructor|].
  destruct (paint_single_shape g st fi eo c (s :: r)) as (k & p & ->); [discriminate|]. repeat constructor.
Qed.

(* ... which is the state in force at the painting operator, with the device matrix of that moment *)
Theorem C16_paint_event : forall res run_form s,
  out (apply_op res run_form KB [] s) = EPath (gs s) true true false (curpath s) (devctm s) :: out s /\
  out (apply_op res run_form Kfstar [] s) = EPath (gs s) false true true (curpath s) (devctm s) :: out s /\
  out (apply_op res run_form Ks [] s) = EPath (gs s) true false false (close_path (curpath s)) (devctm s) :: out s /\
  out (apply_op res run_form Kn [] s) = out s.
Proof. repeat split. Qed.

(* closing a subpath that is already closed (h after h or re; s, b, b* after them) adds nothing *)
Theorem C16_close_idempotent : forall p, close_path (close_path p) = close_path p.
Proof.
  intros p. unfold close_path. destruct (ends_closed p) eqn:E; [rewrite E; reflexivity|].
  assert (E2 : ends_closed (p ++ [SegH]) = true) by (unfold ends_closed; rewrite rev_app_distr; reflexivity).
  rewrite E2. reflexivity.
Qed.
Theorem C16_close_closed : forall p, ends_closed p = true -> close_path p = p.
Proof. intros p H. unfold close_path. rewrite H. reflexivity. Qed.

(* one straight segment under any matrix: a line between the transformed end points *)
Theorem C16_line : forall g st fi eo c x0 y0 x1 y1 (close : bool),
  let path := [SegM x0 y0; SegL x1 y1] ++ (if close then [SegH] else []) in
  exists sh, paint_path g st fi eo c path = [sh] /\ skind_ sh = KLine /\
             spts sh = [mpt c (x0, y0); mpt c (x1, y1)].
Proof. intros g st fi eo c x0 y0 x1 y1 [|]; cbv zeta; eexists; (split; [reflexivity|split; reflexivity]). Qed.

(* x y w h re under an axis-preserving matrix, not degenerate in height: one rectangle *)
Theorem C16_rectangle : forall g st fi eo a d e f x y w h, ~ (d * h == 0)%Q ->
  let c : M6 := (a, 0, 0, d, e, f)%Q in
  let path := [SegM x y; SegL (x + w) y; SegL (x + w) (y + h); SegL x (y + h); SegH]%Q in
  exists sh, paint_path g st fi eo c path = [sh] /\ skind_ sh = KRect /\
             spts sh = [(fst (mpt c (x, y)), snd (mpt c (x, y))); (fst (mpt c (x + w, y + h)), snd (mpt c (x, y)));
                        (fst (mpt c (x + w, y + h)), snd (mpt c (x + w, y + h))); (fst (mpt c (x, y)), snd (mpt c (x + w, y + h)))]%Q.
Proof.
  intros g st fi eo a d e f x y w h Hdeg c path. apply quad_is_rect; unfold c, mpt, apply_matrix_pt; cbn [nadd nmul QOps fst snd].
  - intros [_ E]. apply Hdeg. lra.
  - right. repeat split; ring.
Qed.

Open Scope Z_scope.
(* non-vacuity: two subpaths (an open triangle and a rectangle via re) under a scaling matrix, painted with b*:
   the closing h concerns the last subpath only, and that one is already closed (re): it stays a rectangle *)
Example C16_nonvacuous :
  let prog := [IOpnd (ONum 2); IOpnd (ONum 0); IOpnd (ONum 0); IOpnd (ONum 3); IOpnd (ONum 5); IOpnd (ONum 7); IOp Kcm;
               IOpnd (ONum (1#2)); IOp Kw; IOpnd (ONum 1); IOpnd (ONum 0); IOpnd (ONum 0); IOp KRG;
               IOpnd (ONum 0); IOpnd (ONum 0); IOp Km; IOpnd (ONum 10); IOpnd (ONum 0); IOp Kl;
               IOpnd (ONum 10); IOpnd (ONum 10); IOp Kl;
               IOpnd (ONum 20); IOpnd (ONum 20); IOpnd (ONum 5); IOpnd (ONum 4); IOp Kre; IOp Kbstar] in
  map (fun sh => (match skind_ sh with KLine => 0 | KRect => 1 | KCurve => 2 end, length (spts sh), sstroke sh, sevenodd sh))
      (flat_map shapes_of_event (run_page 2 ident (Res [] [] []) prog))
  = [(2, 3%nat, true, true); (1, 4%nat, true, true)].
Proof. vm_compute. reflexivity. Qed.

Print Assumptions C16_no_residue.
Print Assumptions C16_one_shape_per_subpath.
Print Assumptions C16_state.
Print Assumptions C16_paint_event.
Print Assumptions C16_line.
Print Assumptions C16_rectangle.
Print Assumptions C16_nonvacuous.

Print Assumptions C16_close_idempotent.
Print Assumptions C16_close_closed.
