(* C07 -- Composite fonts: segmentation, CID, Unicode follow CMap, ToUnicode, W/DW.
   Each theorem is derived in a few lines from the lemmas of Proofs/CMapProofs.v and Proofs/TrueTypeProofs.v, or is
   one step of computation on the model.
   Model/CMaps.v mirrors cmapdb.CMap.decode / IdentityCMap / IdentityCMapByte,
   CMapParser's bfchar / bfrange / cidchar / cidrange sections with FileUnicodeMap.add_cid2unichr,
   pdffont.get_widths / get_widths2 and PDFCIDFont's width and displacement lookup.
   Model/TrueType.v mirrors pdffont.TrueTypeFont: the table directory, the cmap header and subtable records, the
   platform filter, subtable formats 0, 2 and 4, unknown formats, reads past the end, and the inversion into
   cid2unichr (tied by differential runs on generated font programs, whole and truncated).
   Not modelled in Coq (checked by the harness against platform codecs only): the contents of the pickled
   predefined CMaps. *)
From Coq Require Import QArith List.
From PdfV Require Import Model.Fonts Model.CMaps Proofs.LabelsProofs Proofs.CMapProofs.
From PdfV Require Import Model.TrueType Proofs.TrueTypeProofs.
Import ListNotations.
Open Scope Z_scope.

(* any string that is a concatenation of codes of the CMap (root-to-leaf paths of its trie, of mixed lengths)
   decodes to exactly the CIDs of those codes, in order *)
Theorem C07_segmentation : forall root cs, Forall (fun c => tget root (fst c) = Some (TLeaf (snd c))) cs ->
  cmap_decode root (concat (map fst cs)) = map snd cs.
Proof. exact segmentation. Qed.
(* a byte that starts no code is skipped and the walk restarts at the root *)
Theorem C07_unknown_byte : forall root i rest, tlookup i root = None -> cmap_decode root (i :: rest) = cmap_decode root rest.
Proof. intros root i rest H. unfold cmap_decode. cbn [decode_go]. rewrite H. reflexivity. Qed.
(* Identity-H/V: two bytes per code, big-endian; a dangling last byte is no code *)
Theorem C07_identity : forall cids, identity_decode (flat_map be2 cids) = cids.
Proof. exact identity_two_bytes. Qed.
Theorem C07_identity_pair : forall hi lo rest, identity_decode (hi :: lo :: rest) = (256 * hi + lo) :: identity_decode rest.
Proof. reflexivity. Qed.
Theorem C07_identity_odd : forall cids b, identity_decode (flat_map be2 cids ++ [b]) = cids.
Proof. intros cids b. unfold identity_decode. rewrite pairs_be_app. apply app_nil_r. Qed.
Theorem C07_identity_byte : forall code, identity_byte_decode code = code.
Proof. reflexivity. Qed.

(* a UTF-16BE target (one or many characters, surrogate pairs included) is stored as its code points *)
Theorem C07_target : forall m cid cps, Forall scalar cps -> cps <> [160] ->
  add_cid2unichr m cid (TBytes (flat_map enc16 cps)) = UOk ((cid, cps) :: m).
Proof. exact add_bytes. Qed.
(* one bfchar pair <code> <target>: the entry is added and the loop goes on with the rest *)
Theorem C07_bfchar : forall m code cps rest, Forall scalar cps -> cps <> [160] ->
  bfchar m ((TBytes code, TBytes (flat_map enc16 cps)) :: rest) = bfchar ((nunpack code, cps) :: m) rest.
Proof. intros m code cps rest H Hn. cbn [bfchar]. rewrite add_bytes by assumption. reflexivity. Qed.
Theorem C07_lookup_newest : forall m cid u, umap_get ((cid, u) :: m) cid = Some u.
Proof. intros m cid u. rewrite umap_get_cons, Z.eqb_refl. reflexivity. Qed.
Theorem C07_lookup_other : forall m cid c u, c <> cid -> umap_get ((c, u) :: m) cid = umap_get m cid.
Proof. intros m cid c u H. rewrite umap_get_cons. destruct (Z.eqb_spec cid c); [congruence|reflexivity]. Qed.
(* the arithmetic of bfrange's increment form (the arguments range_incr gives pack_tail, Model/CMaps.v bfrange): the
   last four bytes read as a number, plus i, packed back to the same length, are the target with its last byte
   increased by i, as long as that byte does not overflow.  The loop range_incr itself has no theorem. *)
Theorem C07_bfrange_increment : forall p lo i, bytes_ok (p ++ [lo]) -> 0 <= i -> lo + i < 256 ->
  let c := p ++ [lo] in
  match pack_tail (nunpack (lastn 4 c) + i) (length (lastn 4 c)) with
  | Some t => butlastn 4 c ++ t = p ++ [lo + i]
  | None => False
  end.
Proof. exact bfrange_target. Qed.
(* bfrange, array form, one step: the code takes the first target of the array and the loop goes on with cid + 1 *)
Theorem C07_bfrange_array : forall m cid n v vs m', add_cid2unichr m cid v = UOk m' ->
  range_array m cid (S n) (v :: vs) = range_array m' (cid + 1) n vs.
Proof. intros m cid n v vs m' H. cbn [range_array]. rewrite H. reflexivity. Qed.

(* horizontal: the last W entry (c [w...] or cfirst clast w, CIDs within 0..65535) covering the CID, else DW *)
Theorem C07_widths : forall es dw w2 dw2 cid, Forall entry_ok es ->
  cid_width (mkCID false (flat_map encode_entry es) dw w2 dw2) cid = match iso_w es cid with Some w => w | None => dw end.
Proof.
  intros es dw w2 dw2 cid Hok. unfold cid_width. cbn [cvertical cw cdw]. rewrite get_widths_entries by exact Hok.
  destruct (iso_w es cid); reflexivity.
Qed.
(* vertical: without W2 every CID advances by DW2[1] and gets no vx of its own; a W2 run c [w vx vy] gives all three *)
Theorem C07_vertical_default : forall w dw dw2 cid,
  cid_width (mkCID true w dw [] dw2) cid = snd dw2 /\ cid_disp (mkCID true w dw [] dw2) cid = (None, fst dw2).
Proof. intros w dw dw2 cid. split; reflexivity. Qed.
Theorem C07_vertical_w2 : forall c w vx vy dw2 wd dw,
  let f := mkCID true wd dw [WN (zq c) true; WL [WN w false; WN vx false; WN vy false]] dw2 in
  cid_width f c = w /\ cid_disp f c = (Some vx, vy).
Proof.
  intros c w vx vy dw2 wd dw.
  cbv zeta. unfold cid_width, cid_disp. cbn [cvertical cw2 cdw2 get_widths2 rev app].
  rewrite qint_zq. cbn [set_run2 get_widths2 zassoc]. rewrite Z.eqb_refl. split; reflexivity.
Qed.

(* a format-4 segment without idRangeOffset gives exactly the characters sc..ec the glyph (c + idDelta) mod 65536
   and leaves every other character as it was *)
Theorem C07_ttf_delta_segment : forall sc ec idd d c,
  dget (seg_delta sc ec idd d) c = if covers sc ec c then Some ((c + idd) mod 65536) else dget d c.
Proof. exact seg_delta_get. Qed.

(* a segment with idRangeOffset gives the k-th character the k-th entry of its glyph array, plus idDelta modulo
   65536 unless the entry is 0 (missing glyph) *)
Theorem C07_ttf_range_segment : forall idd gl sc d c,
  dget (seg_glyphs (zseq sc (length gl)) gl idd d) c =
  if (sc <=? c) && (c <? sc + Z.of_nat (length gl))
  then Some (glyph_of (nth (Z.to_nat (c - sc)) gl 0) idd) else dget d c.
Proof. exact seg_glyphs_get. Qed.

(* the whole segment loop of a format-4 subtable, for ANY four arrays and any bytes: if it completes, the segments
   it saw are segs_of (those with a range offset with the glyph array found at pos + 2i + idRangeOffset), and every
   character has the glyph of the LAST segment covering it, or what it had before when none does *)
Theorem C07_ttf_format4 : forall f pos ecs scs idds idrs d d' c,
  fmt4_segs f pos 0 ecs scs idds idrs d = Some d' ->
  exists segs, segs_of f pos 0 ecs scs idds idrs = Some segs /\ dget d' c = segs_val segs c (dget d c).
Proof.
  intros f pos ecs scs idds idrs d d' c.
  rewrite fmt4_segs_fold. destruct (segs_of f pos 0 ecs scs idds idrs) as [segs|]; [|discriminate].
  intros [= <-]. exists segs. split; [reflexivity|apply segs_get].
Qed.

(* the byte layout: a subtable body written as segCountX2, three search fields, end codes, a reserved word, start
   codes, deltas, range offsets, glyph arrays (ISO/IEC 14496-22 cmap format 4), anywhere in a program, is taken apart
   into exactly those four arrays, the range offsets counting from pos = start + 8 + 6 segCount + 2 *)
Theorem C07_ttf_format4_layout : forall pre x1 x2 x3 pad ecs scs idds idrs tail d,
  length scs = length ecs -> length idds = length ecs -> length idrs = length ecs ->
  forallb is_u16 ecs = true -> forallb is_u16 scs = true -> forallb is_u16 idds = true -> forallb is_u16 idrs = true ->
  2 * Z.of_nat (length ecs) < 65536 ->
  let f := (pre ++ fmt4_body x1 x2 x3 pad ecs scs idds idrs tail)%list in
  let p := Z.of_nat (length pre) in
  fmt4 f p d = fmt4_segs f (p + 8 + 6 * Z.of_nat (length ecs) + 2) 0 ecs scs idds idrs d.
Proof. intros pre x1 x2 x3 pad ecs scs idds idrs tail d Hs Hd Hr _ _ _ _ _. exact (fmt4_layout _ _ _ _ _ _ _ _ _ _ d Hs Hd Hr). Qed.

(* 16-bit big-endian arrays (end codes, start codes, deltas, range offsets, glyph indices) are read back as written,
   wherever in the program they stand *)
Theorem C07_ttf_array_read_back : forall pre l post, forallb is_u16 l = true ->
  u16s_at (pre ++ flat_map be16 l ++ post) (Z.of_nat (length pre)) (length l) = Some l.
Proof. intros pre l post _. exact (u16s_at_mid _ pre l post _ _ eq_refl eq_refl eq_refl). Qed.

(* cid2unichr: what is reported for a glyph is a character the table maps to it; every mapped glyph is reported;
   a glyph with a single character gets exactly that character *)
Theorem C07_ttf_inversion_sound : forall d g u,
  umap_get (invert d) g = Some u -> exists c, In (c, g) d /\ u = [c].
Proof. exact invert_sound. Qed.
Theorem C07_ttf_inversion_complete : forall d c g, In (c, g) d -> umap_get (invert d) g <> None.
Proof. intros d c g. exact (invert_complete d [] c g). Qed.
Theorem C07_ttf_inversion_unique : forall d c g,
  In (c, g) d -> (forall c', In (c', g) d -> c' = c) -> umap_get (invert d) g = Some [c].
Proof.
  intros d c g Hin Hu.
  destruct (umap_get (invert d) g) as [u|] eqn:E.
  - destruct (invert_sound d g u E) as [c' [Hin' Hu']]. subst u. rewrite (Hu c' Hin'). reflexivity.
  - exfalso. exact (invert_complete d [] c g Hin E).
Qed.

Print Assumptions C07_segmentation.
Print Assumptions C07_unknown_byte.
Print Assumptions C07_identity.
Print Assumptions C07_identity_pair.
Print Assumptions C07_identity_odd.
Print Assumptions C07_identity_byte.
Print Assumptions C07_target.
Print Assumptions C07_bfchar.
Print Assumptions C07_lookup_newest.
Print Assumptions C07_lookup_other.
Print Assumptions C07_bfrange_increment.
Print Assumptions C07_bfrange_array.
Print Assumptions C07_widths.
Print Assumptions C07_vertical_default.
Print Assumptions C07_vertical_w2.
Print Assumptions C07_ttf_delta_segment.
Print Assumptions C07_ttf_range_segment.
Print Assumptions C07_ttf_format4.
Print Assumptions C07_ttf_format4_layout.
Print Assumptions C07_ttf_array_read_back.
Print Assumptions C07_ttf_inversion_sound.
Print Assumptions C07_ttf_inversion_complete.
Print Assumptions C07_ttf_inversion_unique.

Example C07_ex_trie :
  let root := [(65, TLeaf 1); (129, TNode [(64, TLeaf 500); (65, TNode [(1, TLeaf 9)])])] in
  cmap_decode root [129; 64; 65; 7; 129; 65; 1; 129] = [500; 1; 9].
Proof. reflexivity. Qed.
Example C07_ex_bfrange :
  run_sections [] [SBfRange [TBytes [65]; TBytes [67]; TBytes [0; 97]; TBytes [70]; TBytes [71]; TList [TBytes [0;102;0;105]; TBytes [216;61;222;0]]]]
  = UOk [(71, [128512]); (70, [102; 105]); (67, [99]); (66, [98]); (65, [97])].
Proof. vm_compute. reflexivity. Qed.
Example C07_ex_w :
  let f := mkCID false (flat_map encode_entry [WRun 10 [500#1; 600#1]; WRange 11 20 (250#1)]) (1000#1) [] (880#1, (-1000)#1) in
  map (cid_width f) [9; 10; 11; 20; 21] = [1000#1; 500#1; 250#1; 250#1; 1000#1]%Q.
Proof. vm_compute. reflexivity. Qed.

From Coq Require Import String.
From PdfV Require Import Base.CV.
Open Scope string_scope.
(* a complete font program: directory, cmap with a (3,1) format-4 subtable of two segments (delta; range offset with
   a missing glyph), read from its bytes: U+0041..0042 -> glyphs 4, 5; U+0061 -> glyph 9, U+0062 has no glyph *)
Example C07_ex_ttf :
  let f := hx "00010000 0001 0000 0000 0000  636d6170 00000000 0000001c 00000038
               0000 0001  0003 0001 0000000c
               0004 002c 0000  0006 0000 0000 0000  0042 0062 ffff 0000  0041 0061 ffff  ffc3 0000 0001  0000 0004 0000  0009 0000" in
  match create_unicode_map f with
  | Some m => map (umap_get m) [4; 5; 9; 0; 7]
  | None => []
  end = [Some [65]; Some [66]; Some [97]; Some [65535]; None].
Proof. vm_compute. reflexivity. Qed.
