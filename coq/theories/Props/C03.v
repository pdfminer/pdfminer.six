(* C03 -- Stream payloads and filter chains decode to exactly the original bytes.
   Each theorem is derived in a few lines from the lemmas of Proofs/.  Decoders: Model/Filters.v (mirrors runlength.py,
   ascii85.py, lzw.py, utils.apply_png_predictor / apply_tiff_predictor and the loop of PDFStream.decode;
   paeth_predictor and the filter-name tables are regenerated from source).
   LZW: C03_lzw_codes (code level: the codes of ANY admissible factorisation of the data into phrases -- single bytes
   or dictionary entries, greedy or not, including the entry the decoder has not built yet -- decode to the data) and
   C03_lzw (bit level: a byte string carrying, most significant bit first and in the widths the decoder expects under
   early change, clear-table, those codes, optionally end-of-data, decodes to the data; C03_lzw_segments: any number of
   such segments, each introduced by a clear-table code, as an encoder writes when its table is full).
   NOT PROVED HERE (covered by differential runs only, see evidence): the Flate stage (zlib is an oracle: in C03_chain
   any stage only has to satisfy [stage_inverts]). *)
From Coq Require Import ZArith List Bool Lia.
From PdfV Require Import Base.CV Base.Num Gen.FilterGen Model.Filters Model.FiltersRun
  Proofs.FilterProofs Proofs.A85Proofs Proofs.LZWProofs Proofs.LZWBits.
Import ListNotations.
Open Scope Z_scope.

(* every split of the data into literal runs (1..128 bytes) and repeat runs (2..128 copies), with the EOD marker
   (and anything after it) or without *)
Theorem C03_runlength : forall runs tail, Forall run_ok runs -> rl_tail tail ->
  rldecode (flat_map run_enc runs ++ tail) = FOk (flat_map run_den runs).
Proof. intros runs tail Hok Htail. unfold rldecode. apply rl_runs; auto. Qed.

Theorem C03_asciihex : forall d t, HexSp d t ->
  asciihexdecode t = FOk d /\ forall junk, asciihexdecode (t ++ 62 :: junk) = FOk d.
Proof. exact ahx_roundtrip. Qed.

Theorem C03_asciihex_odd : forall d t b h1 ws junk,
  HexSp d t -> byte b -> b mod 16 = 0 -> hexdigit_of h1 (b / 16) -> forallb is_ws ws = true ->
  asciihexdecode (t ++ [h1] ++ ws ++ 62 :: junk) = FOk (d ++ [b]).
Proof. exact ahx_odd_final. Qed.

Theorem C03_ascii85 : forall items f body,
  Forall item_ok items -> final_ok f ->
  Inter (flat_map item_digits items ++ final_digits f) body ->
  clean_start body -> clean_end body ->
  ascii85decode (body ++ [126; 62]) = FOk (flat_map item_bytes items ++ final_bytes f) /\
  ascii85decode (60 :: 126 :: body ++ [126; 62]) = FOk (flat_map item_bytes items ++ final_bytes f).
Proof.
  intros items f body Hi Hf Hint Hs He. unfold ascii85decode.
  assert (Hd : strip_start (60 :: 126 :: body ++ [126; 62]) = body ++ [126; 62]).
  { destruct body as [|x r]; [contradiction|]. apply (drop_ws_nonws x), Hs. }
  rewrite Hd, (strip_start_clean body _ Hs), (strip_end_tilde_gt body He).
  split; apply a85_body; assumption.
Qed.

(* every colours x columns geometry at 8 bits, every per-row filter choice *)
Theorem C03_png : forall colors columns rows, 1 <= colors -> 1 <= columns ->
  Forall (row_ok (Z.to_nat (colors * columns))) rows ->
  apply_png_predictor colors columns 8
    (png_encode colors rows (repeat 0 (Z.to_nat (colors * columns))))
  = FOk (List.concat (map snd rows)).
Proof.
  intros colors columns rows Hc Hw Hok. unfold apply_png_predictor. cbn [Z.eqb Pos.eqb orb negb].
  replace ((colors <? 1) || (columns <? 1)) with false by (symmetry; apply orb_false_intro; apply Z.ltb_ge; lia).
  set (p := colors * columns) in *.
  replace ((p * 8 + 7) / 8) with p by (apply Z.div_unique with (r := 7); lia).
  replace (Z.max 1 (colors * 8 / 8)) with colors by (rewrite Z.div_mul by lia; lia).
  apply png_lines_ok; [lia|exact Hok|apply repeat_length|lia].
Qed.

Theorem C03_tiff : forall colors columns rows, 1 <= colors -> 1 <= columns ->
  Forall (fun raw => length raw = Z.to_nat (columns * colors) /\ Forall byte raw) rows ->
  apply_tiff_predictor colors columns 8 (flat_map (tiff_enc_row colors) rows) = FOk (List.concat rows).
Proof.
  intros colors columns rows Hc Hw Hok. unfold apply_tiff_predictor. cbn [Z.eqb Pos.eqb negb].
  replace ((colors <? 1) || (columns <? 1)) with false by (symmetry; apply orb_false_intro; apply Z.ltb_ge; lia).
  change (8 / 8) with 1. rewrite Z.mul_1_r.
  replace (Z.to_nat (columns * colors) =? 0)%nat with false by (symmetry; apply Nat.eqb_neq; lia).
  apply tiff_lines_ok; [lia|lia|exact Hok|lia].
Qed.

Theorem C03_lzw_codes : forall ws ks, length ks = length ws -> (forall t, (t < length ws)%nat -> phrase ws t <> []) ->
  (forall t, (t < length ws)%nat -> code_ok ws t (nth t ks 0)) ->
  feed_all lzw_init (256 :: ks) = Some (List.concat ws).
Proof.
  intros ws ks Hl _ Hc. destruct (segment_decodes ws ks lzw_init Hl Hc) as (s' & F). exact (feeds_feed_all _ _ _ _ F).
Qed.

Theorem C03_lzw : forall data ws ks (eod : bool), Forall LZWBits.byte data ->
  length ks = length ws -> (forall t, (t < length ws)%nat -> phrase ws t <> []) ->
  (forall t, (t < length ws)%nat -> code_ok ws t (nth t ks 0)) ->
  carries (mkB data 0 8) lzw_init (256 :: ks ++ (if eod then [257] else [])) ->
  lzwdecode data = FOk (List.concat ws).
Proof. exact lzw_stream_decodes. Qed.

Theorem C03_lzw_segments : forall data segs (eod : bool), Forall LZWBits.byte data -> Forall seg_ok segs ->
  carries (mkB data 0 8) lzw_init (flat_map (fun seg => 256 :: snd seg) segs ++ (if eod then [257] else [])) ->
  lzwdecode data = FOk (List.concat (flat_map fst segs)).
Proof.
  intros data segs eod Hd Hs C. destruct (lzw_segments_decode segs lzw_init Hs) as (s' & F).
  exact (stream_of_feeds data _ _ s' eod Hd F C).
Qed.

(* readbits takes the next w bits, most significant first, for every stream position *)
Theorem C03_readbits : forall fuel b w v, wfb b -> 0 <= w <= blen b -> w <= (8 - bpos b) + 8 * (Z.of_nat fuel - 1) -> (1 <= fuel)%nat ->
  exists b', readbits fuel b w v = Some (v * 2 ^ w + top b w, b') /\ wfb b' /\ blen b' = blen b - w /\
             bval b' = bval b mod 2 ^ (blen b - w).
Proof. exact readbits_spec. Qed.

Example C03_lzw_nonvacuous :
  let data := [128; 11; 96; 80; 34; 12; 12; 133; 1] in
  let ws := [[45]; [45; 45]; [45; 45]; [65]; [45; 45; 45]; [66]] in
  let ks := [45; 258; 258; 65; 259; 66] in
  (Forall LZWBits.byte data /\ length ks = length ws /\ (forall t, (t < length ws)%nat -> phrase ws t <> []) /\
   (forall t, (t < length ws)%nat -> code_ok ws t (nth t ks 0)) /\
   carries (mkB data 0 8) lzw_init (256 :: ks ++ [257])) /\
  lzwdecode data = FOk [45; 45; 45; 45; 45; 65; 45; 45; 45; 66].
Proof. exact lzw_iso_example. Qed.

Theorem C03_chain : forall inflate stages encs x,
  Forall2 (stage_inverts inflate) stages encs ->
  decode_chain inflate stages (encode_chain encs x) = FOk x.
Proof. exact chain_roundtrip. Qed.

From Coq Require Import String.
Open Scope string_scope.
(* non-vacuity: concrete encodings (the LZW and ASCII85 vectors of the repository's own tests) *)
Example C03_nonvacuous :
  run_lzw (hx "800b6050220c0c8501") = (CL [(CZ 0); (CB (hx "2d2d2d2d2d412d2d2d42"))]) /\
  run_a85 (hx "396a716f5e426c62442d426c654231444a2b2a2b4628662c717e3e") = (CL [(CZ 0); (CB (hx "4d616e2069732064697374696e67756973686564"))]) /\
  run_rl (hx "05123456789abcfa6302aabbcc80") = (CL [(CZ 0); (CB (hx "123456789abc63636363636363aabbcc"))]) /\
  run_png (3, 2, 8, (hx "000102030405060209090909090904010101010101")) = (CL [(CZ 0); (CB (hx "0102030405060a0b0c0d0e0f0b0c0d0e0f10"))]).
Proof. repeat split; vm_compute; reflexivity. Qed.

Print Assumptions C03_runlength.
Print Assumptions C03_asciihex.
Print Assumptions C03_asciihex_odd.
Print Assumptions C03_ascii85.
Print Assumptions C03_png.
Print Assumptions C03_tiff.
Print Assumptions C03_chain.
Print Assumptions C03_lzw_codes.
Print Assumptions C03_lzw.
Print Assumptions C03_lzw_segments.
Print Assumptions C03_readbits.
Print Assumptions C03_lzw_nonvacuous.
Print Assumptions C03_nonvacuous.
