(* C04 -- Page tree: order, inheritance, rotation/box normalisation, page selection.
   Property theorems only.  [dfs] mirrors PDFPage.create_pages.depth_first_search,
   [select] the loop of PDFPage.get_pages (Model/PageTree.v); process_page_ctm,
   begin_page_box and rotate_norm are regenerated from pdfinterp.py, converter.py and
   pdfpage.py on every run (Gen/PageGeom.v). *)
From Coq Require Import QArith List Lqa.
From PdfV Require Import Base.Num Base.CV Gen.Geom Gen.PageGeom Model.PageTree Model.PageRun
  Proofs.PageTreeProofs Proofs.PageGeomProofs.
Import ListNotations.
Open Scope Z_scope.

(* every honest tree, any shape and depth: pages in depth-first Kids order, each with its own
   attribute or else its nearest ancestor's (and the visited set grows by exactly the tree) *)
Theorem C04_order_inherit : forall (st : store) (t : tree), describes st t ->
  forall fuel visited inh,
    (depth t <= fuel)%nat -> (forall i, In i (ids t) -> ~ In i visited) -> NoDup (ids t) ->
    dfs fuel st visited (tid t) inh = Some (spec_pages t inh, rev (ids t) ++ visited).
Proof. exact dfs_tree. Qed.

(* every finite store whatsoever (cycles, repeated kids, dangling references): the traversal
   terminates within the fuel and no page id is produced twice *)
Theorem C04_terminates_once : forall (st : store) (fuel : nat) (visited : list Z) (i : Z) (parent : attrs),
  (unvisited st visited < fuel)%nat ->
  exists ps v', dfs fuel st visited i parent = Some (ps, v') /\ dfs_post visited ps v'.
Proof. exact dfs_total. Qed.

Theorem C04_pages_total : forall st root cat,
  exists ps, pages st root cat = Some ps /\ (ps = fallback st \/ NoDup (map fst ps)).
Proof.
  intros st root cat. unfold pages.
  destruct (dfs_total st (S (S (length st))) [] root cat) as (ps & v' & E & _ & Hnd & _).
  - apply Nat.lt_succ_r, Nat.le_le_succ_r, PdfV.Base.ListX.filter_length_all.
  - rewrite E. destruct ps as [|p r].
    + exists (fallback st). split; [reflexivity|left; reflexivity].
    + exists (p :: r). split; [reflexivity|right; exact Hnd].
Qed.

(* page_numbers / maxpages: exactly the selected indices below the limit, in order *)
Theorem C04_select : forall (A : Type) (ps : list A) (pagenos : list nat) (maxpages : nat),
  select ps 0 pagenos maxpages = spec_select ps pagenos maxpages.
Proof.
  intros A ps pagenos maxpages. unfold spec_select.
  rewrite select_spec_from by (destruct maxpages; [left; reflexivity|right; apply Nat.lt_0_succ]). reflexivity.
Qed.

(* Rotate reduced to 0..359, congruent to the stored value *)
Theorem C04_rotate_range : forall (r : Z),
  0 <= rotate_norm QOps r < 360 /\ (rotate_norm QOps r - r) mod 360 = 0.
Proof. exact (rotate_range QOps). Qed.

(* the MediaBox lands on a box with origin (0,0), sides swapped for the quarter turns *)
Theorem C04_box : forall s (x0 y0 x1 y1 : Q), (x0 < x1)%Q -> (y0 < y1)%Q ->
  (let '(b0, b1, b2, b3) := box_of s x0 y0 x1 y1 0 in b0 = 0 /\ b1 = 0 /\ (b2 == x1 - x0)%Q /\ (b3 == y1 - y0)%Q) /\
  (let '(b0, b1, b2, b3) := box_of s x0 y0 x1 y1 90 in b0 = 0 /\ b1 = 0 /\ (b2 == y1 - y0)%Q /\ (b3 == x1 - x0)%Q) /\
  (let '(b0, b1, b2, b3) := box_of s x0 y0 x1 y1 180 in b0 = 0 /\ b1 = 0 /\ (b2 == x1 - x0)%Q /\ (b3 == y1 - y0)%Q) /\
  (let '(b0, b1, b2, b3) := box_of s x0 y0 x1 y1 270 in b0 = 0 /\ b1 = 0 /\ (b2 == y1 - y0)%Q /\ (b3 == x1 - x0)%Q).
Proof.
  intros s x0 y0 x1 y1 Hx Hy. pose proof (fun rot => box_of_spec s x0 y0 x1 y1 rot Hx Hy) as B.
  exact (conj (B 0) (conj (B 90) (conj (B 180) (B 270)))).
Qed.

(* ... turned clockwise by Rotate: images of three MediaBox corners under the page ctm *)
Theorem C04_clockwise : forall s (x0 y0 x1 y1 : Q),
  let W := (x1 - x0)%Q in let H := (y1 - y0)%Q in
  ((let p := pt_of s x0 y0 x1 y1 0 (x0, y0) in fst p == 0 /\ snd p == 0) /\
   (let p := pt_of s x0 y0 x1 y1 90 (x0, y0) in fst p == 0 /\ snd p == W) /\
   (let p := pt_of s x0 y0 x1 y1 180 (x0, y0) in fst p == W /\ snd p == H) /\
   (let p := pt_of s x0 y0 x1 y1 270 (x0, y0) in fst p == H /\ snd p == 0) /\
   (let p := pt_of s x0 y0 x1 y1 0 (x0, y1) in fst p == 0 /\ snd p == H) /\
   (let p := pt_of s x0 y0 x1 y1 90 (x0, y1) in fst p == H /\ snd p == W) /\
   (let p := pt_of s x0 y0 x1 y1 180 (x0, y1) in fst p == W /\ snd p == 0) /\
   (let p := pt_of s x0 y0 x1 y1 270 (x0, y1) in fst p == 0 /\ snd p == 0) /\
   (let p := pt_of s x0 y0 x1 y1 0 (x1, y0) in fst p == W /\ snd p == 0) /\
   (let p := pt_of s x0 y0 x1 y1 90 (x1, y0) in fst p == 0 /\ snd p == 0) /\
   (let p := pt_of s x0 y0 x1 y1 180 (x1, y0) in fst p == 0 /\ snd p == H) /\
   (let p := pt_of s x0 y0 x1 y1 270 (x1, y0) in fst p == H /\ snd p == W))%Q.
Proof.
  intros s x0 y0 x1 y1 W H. subst W H. unfold pt_of, ctm_of, process_page_ctm.
  cbn [PageRec_mediabox PageRec_rotate Z.eqb Pos.eqb].
  unfold apply_matrix_pt; cbn [nadd nmul nopp nsub nofZ QOps fst snd]; unfold inject_Z; cbn [Z.opp].
  repeat apply conj; lra.
Qed.

(* non-vacuity: a three-level tree with inheritance at two levels satisfies the hypotheses of
   C04_order_inherit, and a cyclic store is handled *)
Example C04_nonvacuous :
  let t := TPages 3 [Some 1; None; None; Some 90]
             [TPage 4 [None; Some 7; None; None];
              TPages 5 [None; Some 8; None; Some (-90)] [TPage 6 no_attrs; TPage 7 [Some 2; None; None; None]]] in
  let st := [(3, mkNode NPages (Some [4; 5]) [Some 1; None; None; Some 90]);
             (4, mkNode NPage None [None; Some 7; None; None]);
             (5, mkNode NPages (Some [6; 7]) [None; Some 8; None; Some (-90)]);
             (6, mkNode NPage None no_attrs); (7, mkNode NPage None [Some 2; None; None; None])] in
  describes st t /\ NoDup (ids t) /\
  pages st 3 no_attrs = Some (spec_pages t no_attrs) /\
  spec_pages t no_attrs = [(4, [Some 1; Some 7; None; Some 90]); (6, [Some 1; Some 8; None; Some (-90)]);
                           (7, [Some 2; Some 8; None; Some (-90)])] /\
  run_pages ([(3, mkNode NPages (Some [4; 3; 4; 9]) no_attrs); (4, mkNode NPage (Some [3]) no_attrs)], 3, no_attrs)
  = CL [CL [CZ 4; CL []; CL []; CL []; CZ 0]].
Proof.
  cbv zeta. split; [|split; [|split; [|split]]].
  - cbn. repeat split.
  - cbn. repeat constructor; cbn; intuition discriminate.
  - vm_compute. reflexivity.
  - vm_compute. reflexivity.
  - vm_compute. reflexivity.
Qed.

Print Assumptions C04_order_inherit.
Print Assumptions C04_terminates_once.
Print Assumptions C04_pages_total.
Print Assumptions C04_select.
Print Assumptions C04_rotate_range.
Print Assumptions C04_box.
Print Assumptions C04_clockwise.
Print Assumptions C04_nonvacuous.
