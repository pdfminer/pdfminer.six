(* C15 -- Filesystem confinement: documents cannot steer file access outside allowed directories.
   Both call sites are instances of join_child (Proofs/PathProofs2.v).  Model/Paths.v mirrors cmapdb.CMapDB._load_data and
   image.ImageWriter._create_unique_image_name over a model of POSIX os.path.join / basename and of path resolution.
   That no OTHER code path opens files is not a theorem: the harness observes the interpreter's audit events. *)
From Coq Require Import ZArith List Lia.
From PdfV Require Import Model.Paths Proofs.PathProofs2.
Import ListNotations.
Open Scope Z_scope.

(* a plain file name joined to a directory resolves to a direct child of that directory *)
Theorem C15_join_child : forall d f, no_slash f -> f <> [] -> f <> DOT -> f <> DOTDOT -> d <> [] ->
  normpath (join d f) = normpath d ++ [f].
Proof. intros d f Hf Hne Hdot Hdd _. apply join_child; assumption. Qed.

(* every path the CMap loader may open for ANY document-supplied name (encoding name, usecmap operand,
   registry-ordering) is a direct child of one of the resource directories; other names are refused *)
Theorem C15_cmap_confined : forall dirs name p, Forall (fun d => d <> []) dirs -> In p (cmap_paths dirs name) ->
  exists d, In d dirs /\ normpath p = normpath d ++ [remove_nul name ++ s_pickle_gz].
Proof.
  intros dirs name p _ Hin. unfold cmap_paths in Hin.
  destruct (str_eqb (basename (remove_nul name ++ s_pickle_gz)) (remove_nul name ++ s_pickle_gz)) eqn:E; [|contradiction].
  apply basename_fixed_noslash in E. apply in_map_iff in Hin. destruct Hin as (d & <- & Hd).
  exists d. split; [exact Hd|].
  destruct (ends_not_dots (remove_nul name) s_pickle_gz ltac:(cbn; lia)) as (A & B & C).
  apply join_child; assumption.
Qed.

(* every exported image is created as a direct child of the output directory, whatever its resource name *)
Theorem C15_image_confined : forall outdir name ext, outdir <> [] -> no_slash ext -> (3 <= length ext)%nat ->
  normpath (image_path outdir name ext) = normpath outdir ++ [sanitize name ++ ext].
Proof.
  intros outdir name ext _ He Hl. unfold image_path.
  destruct (ends_not_dots (sanitize name) ext Hl) as (A & B & C).
  apply join_child; try assumption. apply Forall_app. split; [apply sanitize_noslash|exact He].
Qed.

Print Assumptions C15_join_child.
Print Assumptions C15_cmap_confined.
Print Assumptions C15_image_confined.

(* non-vacuity: a hostile name is refused by the CMap loader and neutralised by the image writer *)
Example C15_ex :
  cmap_paths [[47; 117]] [46; 46; 47; 120] = [] /\
  cmap_paths [[47; 117]] [72] = [[47; 117; 47; 72] ++ s_pickle_gz] /\
  normpath (image_path [47; 111] [46; 46; 47; 46; 46; 47; 120] [46; 98; 109; 112]) = [[111]; [46; 46; 95; 46; 46; 95; 120; 46; 98; 109; 112]].
Proof. vm_compute. repeat split. Qed.
