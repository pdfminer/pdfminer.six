(* C14 -- Tokenizer is total, makes progress and is buffer-size independent on
   all bytes.  Each theorem is derived in a few lines from the lemmas of
   Proofs/LexerProofs.v and Proofs/LexerInv.v.  [tokenize b pos data] is the model of
   PSBaseParser reading [data] through buffers of b bytes (one function per
   _parse_* method, the nexttoken loop with explicit fuel 3n+3 per buffer, the
   EOF flush); its result type has no error outcome other than running out of
   fuel (None).  [lex] is the buffer-free byte automaton. *)
From Coq Require Import ZArith List Bool String.
From PdfV Require Import Base.CV Gen.LexClasses Model.Lexer Model.LexerRun Proofs.LexerProofs Proofs.LexerInv.
Import ListNotations.
Open Scope Z_scope.
Open Scope string_scope.

(* terminates within the fuel for every byte string and every buffer size, and the
   tokens are those of the buffer-free automaton *)
Theorem C14_total : forall (b : nat) (pos : Z) (data : list Z), (0 < b)%nat ->
  tokenize b pos data = Some (lex pos data).
Proof. exact tokenize_lex. Qed.

Theorem C14_bufsize_independent : forall (b1 b2 : nat) (pos : Z) (data : list Z),
  (0 < b1)%nat -> (0 < b2)%nat -> tokenize b1 pos data = tokenize b2 pos data.
Proof. intros. rewrite !tokenize_lex by assumption. reflexivity. Qed.

(* positions are non-decreasing and lie inside the input *)
Theorem C14_positions : forall (pos : Z) (data : list Z),
  sorted_asc (map fst (lex pos data)) /\
  forall pt, In pt (lex pos data) -> pos <= fst pt < pos + len data.
Proof. exact lex_positions. Qed.

(* the absolute offset only shifts the reported positions *)
Theorem C14_offset : forall (pos : Z) (data : list Z),
  lex pos data = map (shiftp pos) (lex 0 data).
Proof. exact lex_offset. Qed.

(* non-vacuity: one input with every token kind, an escape-laden string split by
   the buffer sizes 1-5, 7 and 4096; tokens in the cv encoding of Model/LexerRun.v *)
Example C14_nonvacuous :
  let data := hx "2f41233432202d31322e35202b37203c3c3e3e5b747275655d28615c0d0a625c3737375c28293c3430313e25250a6e756c6c" in
  forallb (fun b => cv_eqb (run_tokenize (b, data)) (run_lex data)) [1; 2; 3; 4; 5; 7; 4096]%nat = true
  /\ run_lex data = (CL [(CL [(CZ 0); (CL [(CZ 4); (CB (hx "4142"))])]); (CL [(CZ 6); (CL [(CZ 1); (CB (hx "2d31322e35"))])]); (CL [(CZ 12); (CL [(CZ 0); (CZ 7)])]); (CL [(CZ 15); (CL [(CZ 3); (CB (hx "3c3c"))])]); (CL [(CZ 17); (CL [(CZ 3); (CB (hx "3e3e"))])]); (CL [(CZ 19); (CL [(CZ 3); (CB (hx "5b"))])]); (CL [(CZ 20); (CL [(CZ 2); (CZ 1)])]); (CL [(CZ 24); (CL [(CZ 3); (CB (hx "5d"))])]); (CL [(CZ 25); (CL [(CZ 5); (CB (hx "6162ff28"))])]); (CL [(CZ 38); (CL [(CZ 5); (CB (hx "4001"))])]); (CL [(CZ 46); (CL [(CZ 3); (CB (hx "6e756c6c"))])])]).
Proof. split; vm_compute; reflexivity. Qed.

Print Assumptions C14_total.
Print Assumptions C14_bufsize_independent.
Print Assumptions C14_positions.
Print Assumptions C14_offset.
Print Assumptions C14_nonvacuous.
