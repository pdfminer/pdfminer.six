(* C01 -- Object syntax: every conformant spelling of a value reads back as that
   value.  Each theorem is derived in a few lines from the lemmas of Proofs/.
   Layers: bytes --(Model/Lexer: chunked scanners = byte automaton, C14)--> tokens
           --(Model/StackParser: nextobject + do_keyword)--> values.
   FULL STATEMENT (the property): for every value v, every ISO-conformant byte
   spelling s of v, every BUFSIZ and offset, reading s yields v.
   PROVED HERE, about the model: the full statement for the following family of spellings
   (C01_value_bytes_read_back, C01_indirect_object_bytes_read_back, C01_every_value_has_a_spelling):
   a value's tokens, each in ANY of its admissible spellings - literal strings (raw bytes, balanced unescaped
   parentheses to any depth, named escapes, 1-3 digit octal escapes, line continuations with LF / CR / CRLF, ignored
   backslashes), hexadecimal strings (either case,
   white space anywhere, even digit count), names (raw regular bytes and #xx), integers (sign, leading zeros), reals
   ([sign] digits . digits), true / false / null / R / obj / endobj, [ ] << >> - separated by ANY amount of white
   space (including NUL) and comments, or by nothing where a delimiter follows (minimal delimiters, including the
   pending '>' after a hexadecimal string); for every BUFSIZ and offset (C01_bufsize_offset_independent, from C14).
   Parts: (a) object layer for every value tree of any depth over the token sequence (C01_object_layer, ...), which
   yields [norm v]: v with null-valued dictionary entries dropped and the last of equal keys kept;
   (b) byte layer per token kind (C01_*_any_spelling, C01_*_in_context); (c) C01_token_sequence: a spelled token
   sequence is tokenized into exactly its tokens from any state between tokens.
   NOT in the statement: the numeric VALUE of a real (the token carries the spelling; float() is Python's; the
   harness compares dyadic values).  Excluded because pdfminer
   deviates (known findings): odd digit count in hexadecimal strings, raw CR / CRLF inside literal strings. *)
From Coq Require Import ZArith List Bool String.
From PdfV Require Import Base.CV Gen.LexClasses Model.Lexer Model.StackParser Model.StackRun
  Proofs.LexerProofs Proofs.LexerInv Proofs.StackProofs Proofs.SpellingProofs Proofs.SpellingProofs2 Proofs.SpellingSeq
  Proofs.SpellingValues.
Import ListNotations.
Open Scope Z_scope.
Open Scope string_scope.

(* any value tree, any depth, inside any open container (or anywhere in a PDFParser):
   reading its tokens pushes exactly the value (null-valued entries absent, last key wins) *)
Theorem C01_object_layer : forall (fl : flavour) (v : value), wfv v ->
  forall s rest, stable fl s ->
    run_toks fl s (tprint v ++ rest) = run_toks fl (push (norm v) s) rest.
Proof. exact reads_back_all. Qed.

Theorem C01_stream_toplevel : forall v, wfv v -> (forall n, v <> VRef n) ->
  parse_all PStream (tprint v) = Ok [norm v].
Proof. exact stream_toplevel. Qed.

Theorem C01_pdf_indirect_object : forall n g v, wfv v ->
  parse_all PPdf ([TInt n; TInt g; TKw K_obj] ++ tprint v ++ [TKw K_endobj])
  = Ok [VInt n; VInt g; VKw K_obj; norm v].
Proof. exact pdf_indirect_object. Qed.

Theorem C01_ref_any_generation : forall fl n g s rest, stable fl s ->
  run_toks fl s ([TInt n; TInt g; TKw K_R] ++ rest) = run_toks fl (push (VRef n) s) rest.
Proof. exact ref_any_generation. Qed.

(* the tokens handed to the object layer do not depend on BUFSIZ or on the offset *)
Theorem C01_bufsize_offset_independent : forall (b : nat) (pos : Z) (data : list Z), (0 < b)%nat ->
  option_map (map snd) (tokenize b pos data) = Some (map snd (lex 0 data)).
Proof.
  intros b pos data Hb. rewrite tokenize_lex by exact Hb. cbn [option_map]. f_equal.
  rewrite lex_offset, map_map. apply map_ext. intros [p t]. reflexivity.
Qed.

(* literal strings, byte level: ( spelling ) is read, for every BUFSIZ and offset, as the one token carrying the bytes *)
Theorem C01_literal_string_any_spelling : forall (b : nat) (pos : Z) (ps : list piece), (0 < b)%nat -> seq_ok ANone ps ->
  tokenize b pos (40 :: flat_map render ps ++ [41]) = Some [(pos, TStr (flat_map pvalue ps))].
Proof.
  intros b pos ps Hb Hok. rewrite tokenize_lex by exact Hb. f_equal.
  destruct (literal_string_token (init pos) ps eq_refl Hok) as [Hm Ht].
  rewrite lex_eq, toks_lf, Ht by (left; exact Hm). reflexivity.
Qed.

(* ... and in context: after anything that leaves the tokenizer between tokens, it adds exactly that token *)
Theorem C01_literal_string_in_context : forall st ps, lmode st = MMain -> seq_ok ANone ps ->
  let fin := run st (40 :: flat_map render ps ++ [41]) in
  lmode fin = MMain /\ toks fin = (apos st, TStr (flat_map pvalue ps)) :: toks st.
Proof. exact literal_string_token. Qed.

Theorem C01_every_string_has_a_spelling : forall v, Forall (fun b => 0 <= b < 256) v ->
  exists ps, seq_ok ANone ps /\ flat_map pvalue ps = v.
Proof. exact every_string_has_a_spelling. Qed.

Example C01_literal_string_nonvacuous :
  let ps := [PRaw 65; PEsc 110 10; POct [48; 49]; PRaw 57; POct [49; 50; 51]; PRaw 52; PCont [13]; PRaw 66; PCont [13; 10];
             PIgn 113; PEsc 40 40; POct [55]; PCont [10]; POpen; PRaw 66; POpen; PClose; POct [55]; PClose] in
  seq_ok ANone ps /\ flat_map pvalue ps = [65; 10; 1; 57; 83; 52; 66; 113; 40; 7; 40; 66; 40; 41; 7; 41].
Proof. exact spelling_example. Qed.

(* hexadecimal strings: < digits in any case with white space anywhere > *)
Theorem C01_hex_string_any_spelling : forall (b : nat) (pos : Z) (ps : list hpiece), (0 < b)%nat -> Forall hwf ps ->
  tokenize b pos (60 :: flat_map hrender ps ++ [62]) = Some [(pos, TStr (flat_map hvalue ps))].
Proof.
  intros b pos ps Hb Hok. rewrite tokenize_lex by exact Hb. f_equal.
  destruct (hex_string_token (init pos) ps eq_refl Hok) as [Hm Ht].
  rewrite lex_eq, toks_lf, Ht by (right; exact Hm). reflexivity.
Qed.
Theorem C01_hex_string_in_context : forall st ps, lmode st = MMain -> Forall hwf ps ->
  let fin := run st (60 :: flat_map hrender ps ++ [62]) in
  lmode fin = MWClose /\ toks fin = (apos st, TStr (flat_map hvalue ps)) :: toks st.
Proof. exact hex_string_token. Qed.
Theorem C01_every_string_has_a_hex_spelling : forall v, Forall (fun b => 0 <= b < 256) v ->
  exists ps, Forall hwf ps /\ flat_map hvalue ps = v.
Proof.
  apply spell_bytes. intros b Hb. destruct (byte_has_hex b Hb) as (h1 & h2 & H1 & H2 & E).
  exists (HByte h1 h2 nil). cbn [hwf hvalue forallb]. rewrite E. auto.
Qed.

(* names: / raw regular bytes and #xx escapes, up to any delimiter *)
Theorem C01_name_any_spelling : forall (b : nat) (pos : Z) (ps : list npiece), (0 < b)%nat -> Forall nwf ps ->
  tokenize b pos (47 :: flat_map nrender ps) = Some [(pos, TLit (flat_map nvalue ps))].
Proof.
  intros b pos ps Hb Hok. rewrite tokenize_lex by exact Hb. f_equal.
  apply completes_lex, name_completes; [reflexivity|exact Hok|split; [reflexivity|discriminate]].
Qed.
Theorem C01_name_in_context : forall st ps d, lmode st = MMain -> Forall nwf ps -> ndelim d ->
  exists st', lmode st' = MMain /\ toks st' = (apos st, TLit (flat_map nvalue ps)) :: toks st /\
              run st (47 :: flat_map nrender ps ++ [d]) = step st' d.
Proof.
  intros st ps d Hm Hps Hd. destruct (name_completes st ps d Hm Hps Hd) as (st' & [M T] & R).
  exists st'. split; [exact M|]. split; [exact T|exact (R nil)].
Qed.
Theorem C01_every_name_has_a_spelling : forall v, Forall (fun b => 0 <= b < 256) v ->
  exists ps, Forall nwf ps /\ flat_map nvalue ps = v.
Proof. exact every_name_has_a_spelling. Qed.

(* integers: optional sign, any number of leading zeros *)
Theorem C01_integer_any_spelling : forall (b : nat) (pos : Z) s ds, (0 < b)%nat -> ds <> [] -> forallb isdigit ds = true ->
  tokenize b pos (sign_bytes s ++ ds) = Some [(pos, TInt (sign_apply s (digits_val ds)))].
Proof.
  intros b pos s ds Hb Hne Hd. rewrite tokenize_lex by exact Hb. f_equal.
  apply completes_lex, integer_completes; [reflexivity|exact Hne|exact Hd|split; [reflexivity|discriminate]].
Qed.
Theorem C01_integer_in_context : forall st s ds d, lmode st = MMain -> ds <> [] -> forallb isdigit ds = true -> idelim d ->
  exists st', lmode st' = MMain /\ toks st' = (apos st, TInt (sign_apply s (digits_val ds))) :: toks st /\
              run st (sign_bytes s ++ ds ++ [d]) = step st' d.
Proof.
  intros st s ds d Hm Hne Hd Hdl. destruct (integer_completes st s ds d Hm Hne Hd Hdl) as (st' & [M T] & R).
  exists st'. split; [exact M|]. split; [exact T|]. rewrite app_assoc. exact (R nil).
Qed.
Theorem C01_every_integer_has_a_spelling : forall z,
  exists s ds, ds <> [] /\ forallb isdigit ds = true /\ sign_apply s (digits_val ds) = z.
Proof. exact every_integer_has_a_spelling. Qed.
Theorem C01_leading_zeros : forall ds, digits_val (48 :: ds) = digits_val ds.
Proof. reflexivity. Qed.

Example C01_scalar_spellings_nonvacuous :
  tokenize 3 7 (hx "3c342061200a34413e") = Some [(7, TStr [74; 74])] /\
  tokenize 2 0 (hx "2f4123343223323042") = Some [(0, TLit [65; 66; 32; 66])] /\
  tokenize 1 5 (hx "2d30303137") = Some [(5, TInt (-17))].
Proof. vm_compute. auto. Qed.

(* token sequences: any admissible spelling of each token, any white space / comments / minimal delimiters between *)
Theorem C01_token_sequence : forall ts bytes, spelled ts bytes -> forall st, gap st ->
  tks (run st (bytes ++ [10])%list) = (rev ts ++ tks st)%list.
Proof. exact spelled_tokens. Qed.

(* the layers composed, on the byte automaton ([parse_bytes] reads through [lex 0]; for [tokenize] with any BUFSIZ and
   offset compose with C01_bufsize_offset_independent): every such byte spelling of a value reads back as [norm v] *)
Theorem C01_value_bytes_read_back : forall v bytes, wfv v -> (forall n, v <> VRef n) -> spelled (tprint v) bytes ->
  parse_bytes PStream bytes = Ok [norm v].
Proof.
  intros v bytes Hwf Hnr Hs. unfold parse_bytes. rewrite (spelled_lex _ _ Hs). apply stream_toplevel; assumption.
Qed.
Theorem C01_indirect_object_bytes_read_back : forall n g v bytes, wfv v ->
  spelled ([TInt n; TInt g; TKw K_obj] ++ tprint v ++ [TKw K_endobj])%list bytes ->
  parse_bytes PPdf bytes = Ok [VInt n; VInt g; VKw K_obj; norm v].
Proof.
  intros n g v bytes Hwf Hs. unfold parse_bytes. rewrite (spelled_lex _ _ Hs). apply pdf_indirect_object; assumption.
Qed.
Theorem C01_every_value_has_a_spelling : forall v, wfv v -> bwf v -> exists bytes, spelled (tprint v) bytes.
Proof. intros v Hw Hb. apply spelled_exists, tprint_tokens_ok; assumption. Qed.

(* non-vacuity: a nested value with escapes, spelled with minimal delimiters and comments *)
Example C01_nonvacuous :
  (* [/A#42(<\(()>\101\<LF>)<</K[1 -2.5]/N null/R 3 0 R>>%c<LF><4 1<LF>4a>true] *)
  run_parse_stream (hx "5b2f41233432283c5c2828293e5c3130315c0a293c3c2f4b5b31202d322e355d2f4e206e756c6c2f522033203020523e3e25630a3c3420310a34613e747275655d")
  = (CL [(CZ 0); (CL [(CL [(CZ 6); (CL [(CL [(CZ 4); (CB (hx "4142"))]); (CL [(CZ 5); (CB (hx "3c2828293e41"))]); (CL [(CZ 7); (CL [(CL [(CB (hx "4b")); (CL [(CZ 6); (CL [(CL [(CZ 2); (CZ 1)]); (CL [(CZ 3); (CZ (-5)); (CZ 2)])])])]); (CL [(CB (hx "52")); (CL [(CZ 8); (CZ 3)])])])]); (CL [(CZ 5); (CB (hx "414a"))]); (CL [(CZ 1); (CZ 1)])])])])]).
Proof. vm_compute. reflexivity. Qed.

Print Assumptions C01_object_layer.
Print Assumptions C01_stream_toplevel.
Print Assumptions C01_pdf_indirect_object.
Print Assumptions C01_ref_any_generation.
Print Assumptions C01_bufsize_offset_independent.
Print Assumptions C01_nonvacuous.
Print Assumptions C01_literal_string_any_spelling.
Print Assumptions C01_literal_string_in_context.
Print Assumptions C01_every_string_has_a_spelling.
Print Assumptions C01_literal_string_nonvacuous.
Print Assumptions C01_hex_string_any_spelling.
Print Assumptions C01_hex_string_in_context.
Print Assumptions C01_every_string_has_a_hex_spelling.
Print Assumptions C01_name_any_spelling.
Print Assumptions C01_name_in_context.
Print Assumptions C01_every_name_has_a_spelling.
Print Assumptions C01_integer_any_spelling.
Print Assumptions C01_integer_in_context.
Print Assumptions C01_every_integer_has_a_spelling.
Print Assumptions C01_leading_zeros.
Print Assumptions C01_scalar_spellings_nonvacuous.
Print Assumptions C01_token_sequence.
Print Assumptions C01_value_bytes_read_back.
Print Assumptions C01_indirect_object_bytes_read_back.
Print Assumptions C01_every_value_has_a_spelling.
