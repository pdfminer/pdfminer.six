(* C11 -- Converters: text output is the tree's text; XML is well-formed and faithful.
   Each theorem is derived in a few lines from the lemmas of Proofs/.  Model/Convert.v mirrors utils.enc,
   TextConverter.receive_layout and XMLConverter.receive_layout / write_text / header / footer.  Number formatting
   ("%.3f", "%d") and the codecs are Python's; they are exercised by the harness, not modelled. *)
From Coq Require Import ZArith List Bool Lia.
From PdfV Require Import Model.Convert Proofs.ConvertProofs.
Import ListNotations.
Open Scope Z_scope.

(* the plain-text output is the in-order concatenation of the tree's text: one line break after each text box,
   one form feed after each page *)
Theorem C11_text_pages : forall p ps, text_output (p :: ps) = page_text p ++ text_output ps.
Proof. reflexivity. Qed.
Theorem C11_text_page : forall p, page_text p = flat_map item_text (pitems p) ++ [12].
Proof. reflexivity. Qed.
Theorem C11_text_box : forall b, item_text (IBox b) = flat_map line_text (tblines b) ++ [10].
Proof. reflexivity. Qed.
Theorem C11_text_line : forall l, item_text (ILine l) = flat_map elem_text (tlelems l).
Proof. reflexivity. Qed.
Theorem C11_text_figure : forall n bb kids, item_text (IFigure n bb kids) = flat_map item_text kids.
Proof. reflexivity. Qed.

(* escaping: no angle bracket or quote character survives, and a reader decoding the entities recovers EVERY string exactly *)
Theorem C11_escape_safe : forall s, Forall (fun c => c <> 60 /\ c <> 62 /\ c <> 34 /\ c <> 39) (escape s).
Proof. intros s. apply Forall_flat_map, Forall_forall. intros c _. apply escape_char_safe. Qed.
Theorem C11_escape_roundtrip : forall s fuel, (length (escape s) <= fuel)%nat -> unescape fuel (escape s) = s.
Proof. intros s fuel Hf. apply unescape_chars. pose proof (escape_length s). lia. Qed.
Theorem C11_strip_control : forall s, Forall (fun c => is_control c = false) (strip_control s).
Proof.
  intros s. apply Forall_forall. intros c Hc. apply filter_In in Hc. destruct Hc as [_ H]. apply negb_true_iff in H. exact H.
Qed.
Theorem C11_strip_keeps : forall s, Forall (fun c => is_control c = false) s -> strip_control s = s.
Proof. exact strip_control_keeps. Qed.

(* the XML element structure is well nested for every document: pages, figures nested to any depth, boxes, lines,
   glyphs, the layout group hierarchy *)
Theorem C11_xml_well_nested : forall strip pages, nest (body_tokens strip pages) [] = Some [].
Proof. intros strip pages. apply (neutral_wrap n_pages), neutral_flat_map_all, page_neutral. Qed.

(* faithful: glyph text and document-controlled names come back from the output *)
Theorem C11_glyph_data : forall c,
  unescape (length (xml_write_text false (ctext c))) (xml_write_text false (ctext c)) = ctext c.
Proof. intros c. apply C11_escape_roundtrip, le_n. Qed.
Theorem C11_glyph_data_stripped : forall c,
  unescape (length (xml_write_text true (ctext c))) (xml_write_text true (ctext c)) = strip_control (ctext c) /\
  Forall (fun ch => is_control ch = false) (strip_control (ctext c)).
Proof. intros c. split; [apply C11_escape_roundtrip, le_n|apply C11_strip_control]. Qed.
Theorem C11_names : forall name : str,
  unescape (length (escape name)) (escape name) = name /\ Forall (fun c => c <> 60 /\ c <> 62 /\ c <> 34 /\ c <> 39) (escape name).
Proof. intros name. split; [apply C11_escape_roundtrip, le_n|apply C11_escape_safe]. Qed.

Print Assumptions C11_text_pages.
Print Assumptions C11_text_page.
Print Assumptions C11_text_box.
Print Assumptions C11_text_line.
Print Assumptions C11_text_figure.
Print Assumptions C11_escape_safe.
Print Assumptions C11_escape_roundtrip.
Print Assumptions C11_strip_control.
Print Assumptions C11_strip_keeps.
Print Assumptions C11_xml_well_nested.
Print Assumptions C11_glyph_data.
Print Assumptions C11_glyph_data_stripped.
Print Assumptions C11_names.

Example C11_ex_escape : escape [97; 60; 38; 34; 39; 62] = [97] ++ s_lt ++ s_amp ++ s_quot ++ s_apos ++ s_gt.
Proof. reflexivity. Qed.
Example C11_ex_text :
  let c t := mkChr [70] [] [] [] [] t in
  text_output [mkPage [49] [] [48] [IBox (mkTBox [48] [] false [mkTLine [] [LChar (c [72]); LChar (c [105]); LAnno [10]]]);
                                   IFigure [88] [] [IChar (c [33])]] None]
  = [72; 105; 10; 10; 33; 12].
Proof. reflexivity. Qed.
