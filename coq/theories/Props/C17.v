(* C17 -- Page labels, outlines and named destinations follow their tree definitions;
   text strings decode per byte-order mark.  Each theorem follows in a few lines from Proofs/LabelsProofs.v and
   Proofs/TreeLookupProofs.v (Model/Labels.v mirrors
   data_structures.NumberTree, pdfdocument.PageLabels / lookup_name / get_outlines and
   utils.format_int_roman / format_int_alpha / decode_text; PDFDocEncoding and the roman digit
   tables are regenerated from utils.py). *)
From Coq Require Import ZArith List Permutation Lia.
From PdfV Require Import Gen.TextTables Model.Labels Proofs.LabelsProofs Proofs.TreeLookupProofs.
Import ListNotations.
Open Scope Z_scope.

(* number trees of any shape: the values are exactly the Nums entries of all nodes, sorted by key *)
Theorem C17_numbertree : forall (V : Type) (t : numtree V),
  Permutation (nt_parse t) (nt_values t) /\ sortedk V (nt_values t).
Proof. intros V t. split; [apply stable_sort_perm|apply stable_sort_sorted]. Qed.

(* page labels: for ranges sorted by start with page 0 first, the k-th label produced is
   prefix ++ numeral(St + (k - start)) of the last range starting at or before k, for EVERY k *)
Theorem C17_label : forall ranges ld k, sorted_starts ((0, ld) :: ranges) -> 0 <= k ->
  label_at ((0, ld) :: ranges) k = spec_label ((0, ld) :: ranges) k.
Proof.
  intros ranges ld k Hs Hk. rewrite label_at_spec by assumption.
  unfold spec_label. cbn [spec_range]. assert (E : (0 <=? k) = true) by (apply Z.leb_le; lia).
  rewrite E. cbn [Z.add]. destruct (spec_range ranges k (Some (0, ld))) as [[s d]|]; reflexivity.
Qed.

Theorem C17_roman : forall n, 0 < n < 4000 -> format_int_roman n = Some (spec_roman n).
Proof. exact roman_all. Qed.

Theorem C17_roman_outside : forall n, n <= 0 \/ 4000 <= n -> format_int_roman n = None.
Proof.
  intros n Hn. unfold format_int_roman.
  destruct (0 <? n) eqn:E1; destruct (n <? 4000) eqn:E2; try reflexivity.
  apply Z.ltb_lt in E1. apply Z.ltb_lt in E2. lia.
Qed.

(* FULL STATEMENT (ISO 12.4.2): forall n > 0, format_int_alpha n = Some (spec_alpha n).
   It is FALSE of the code (known finding C17-alpha27, pinned by tests/test_utils.py): *)
Theorem C17_alpha_refuted : exists n, 0 < n /\ format_int_alpha n <> Some (spec_alpha n).
Proof. exists 28. split; [lia|]. vm_compute. discriminate. Qed.
(* what holds: the first 26 values *)
Theorem C17_alpha_partial : forall n, 0 < n <= 26 -> format_int_alpha n = Some (spec_alpha n).
Proof.
  intros n Hn. unfold format_int_alpha, spec_alpha. replace (0 <? n) with true by lia. cbn [alpha_go].
  replace (n =? 0) with false by lia. rewrite (Z.div_small (n - 1) 26) by lia.
  destruct (Z.to_nat (Z.log2 n)); reflexivity.
Qed.

(* named destinations: on every well-formed name tree (Limits bound their subtrees, sibling
   subtrees separated by their Limits, leaves functional, truthy values), of any shape, a present
   name yields its destination and an absent one the not-found error *)
Theorem C17_nametree : forall (k : key) (t : nametree), wf_nm t -> nlimits t = None ->
  (forall v, In (k, v) (nm_entries t) -> nm_lookup k t = Found v) /\
  ((forall v, ~ In (k, v) (nm_entries t)) -> nm_lookup k t = KeyErr).
Proof.
  intros k t Hwf Hroot. destruct (nm_lookup_correct k t Hwf) as [Hf Ha]. split; [exact Hf|].
  intros Hn. destruct (Ha Hn) as [[E _]|[_ Hout]]; [exact E|]. rewrite Hroot in Hout. destruct (Hout I).
Qed.

(* outlines: on every honest forest the entries come in document (pre)order with their levels *)
Theorem C17_outline : forall st fuel sibs level, odescs st sibs -> (fsize sibs < fuel)%nat ->
  match head_id sibs with
  | Some i => osearch fuel st i level = Some (flat_map (spec_outline level) sibs)
  | None => True
  end.
Proof. exact osearch_forest. Qed.

Theorem C17_textstring_utf16 : forall cps, Forall scalar cps ->
  decode_text (254 :: 255 :: flat_map enc16 cps) = cps.
Proof. exact decode_utf16. Qed.

Theorem C17_textstring_pdfdoc : forall s, (forall r, s <> 254 :: 255 :: r) ->
  decode_text s = map (fun c => nth (Z.to_nat c) PDFDocEncoding 0) s.
Proof.
  (* [decode_text] matches on the literals 254 and 255: bit by bit, every other value falls to the table *)
  intros s H. unfold decode_text. destruct s as [|a t]; [reflexivity|].
  destruct a as [|p|p]; try reflexivity. repeat (destruct p as [p|p|]; try reflexivity).
  destruct t as [|b r]; [reflexivity|].
  destruct b as [|p|p]; try reflexivity. repeat (destruct p as [p|p|]; try reflexivity).
  destruct (H r eq_refl).
Qed.

Example C17_nonvacuous :
  (* a two-level name tree (ISO-conformant Limits), with a hit and a miss *)
  let t := NM None None (Some [NM (Some ([97], [98])) (Some [([97], 11); ([98], 12)]) None;
                               NM (Some ([99], [100; 1])) None
                                  (Some [NM (Some ([99], [99])) (Some [([99], 13)]) None;
                                         NM (Some ([100], [100; 1])) (Some [([100], 14); ([100; 1], 15)]) None])]) in
  (nm_lookup [100; 1] t = Found 15 /\ nm_lookup [98; 0] t = KeyErr) /\
  (* labels: i ii iii 1 2 A-7 A-8 ... *)
  (let ranges := [(0, mkLD Sr [] 1); (3, mkLD SD [] 1); (5, mkLD SD [65; 45] 7)] in
   sorted_starts ranges /\ map (label_at ranges) [0; 2; 3; 4; 5; 100]
   = [Some (Label [105]); Some (Label [105; 105; 105]); Some (Label [49]); Some (Label [50]);
      Some (Label [65; 45; 55]); Some (Label [65; 45; 49; 48; 50])]) /\
  (* an outline forest with a nested child *)
  (let st := [(5, mkO None false (Some 6) (Some 8) None); (6, mkO (Some 60) true (Some 7) (Some 7) (Some 8));
              (7, mkO (Some 70) true None None None); (8, mkO (Some 80) false None None None)] in
   odescs st [OT 6 60 true [OT 7 70 true []]; OT 8 80 false []] /\
   osearch 10 st 6 1 = Some [(1, 60); (2, 70)]).
Proof.
  cbv zeta. repeat split; try (vm_compute; reflexivity); try (vm_compute; intuition congruence).
Qed.

Print Assumptions C17_numbertree.
Print Assumptions C17_label.
Print Assumptions C17_roman.
Print Assumptions C17_roman_outside.
Print Assumptions C17_alpha_refuted.
Print Assumptions C17_alpha_partial.
Print Assumptions C17_nametree.
Print Assumptions C17_outline.
Print Assumptions C17_textstring_utf16.
Print Assumptions C17_textstring_pdfdoc.
Print Assumptions C17_nonvacuous.
