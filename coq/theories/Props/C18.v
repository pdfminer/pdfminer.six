(* C18 -- Images: exported files and inline image data reproduce the samples exactly.
   Each theorem is derived in a few lines from the lemmas of Proofs/.  Model/Images.v mirrors image.BMPWriter /
   ImageWriter (format choice, _save_bmp, unique names) and pdfinterp.PDFContentParser.get_inline_data; [bmp_read] is
   a plain BMP decoder written from the format
   description, standing for "a standard reader".  JPEG data is written through unchanged (checked byte for byte by
   the harness); lossless filter chains are C03's. *)
From Coq Require Import ZArith List Bool.
From PdfV Require Import Model.Images Proofs.ImageProofs.
Import ListNotations.
Open Scope Z_scope.

(* the exported BMP decodes to the stored geometry and, row by row, exactly the stored sample bytes:
   8-bit gray, 8-bit RGB (24 bits per pixel) and 1-bit images of every width and height below 32768 *)
Theorem C18_bmp_roundtrip : forall bits width height data,
  (bits = 1 \/ bits = 8 \/ bits = 24) -> 0 < width < 32768 -> 0 <= height < 32768 ->
  let bpl := (width * bits + 7) / 8 in
  length data = Z.to_nat (bpl * height) ->
  exists f, bmp_file bits width height bpl data = Some f /\
            bmp_read f = Some (mkImage width height bits (row_slices data bpl height)).
Proof. exact bmp_roundtrip. Qed.

Theorem C18_row_roundtrip : forall bits width d,
  (bits = 1 \/ bits = 8 \/ bits = 24) -> 0 <= width ->
  length d = Z.to_nat ((width * bits + 7) / 8) ->
  let stored := bmp_row bits width d in
  length stored = Z.to_nat (linesize bits width) /\
  (let e := firstn (Z.to_nat ((width * bits + 7) / 8)) stored in if bits =? 24 then swap_rgb e else e) = d.
Proof. exact row_roundtrip. Qed.

(* names: an existing file is never chosen, and successive exports get distinct names *)
Theorem C18_name_fresh : forall existing base ext n, unique_name existing base ext = Some n -> exists_in existing n = false.
Proof. exact unique_name_fresh. Qed.
Theorem C18_names_distinct : forall existing base ext base2 ext2 n1 n2,
  unique_name existing base ext = Some n1 -> unique_name (n1 :: existing) base2 ext2 = Some n2 -> n1 <> n2.
Proof.
  intros existing base ext base2 ext2 n1 n2 _ H2 <-. apply unique_name_fresh in H2. cbn [exists_in existsb] in H2.
  rewrite (Base.ListX.zs_eqb_refl n1 : str_eqb n1 n1 = true) in H2. discriminate.
Qed.

(* inline images: data in which "EI"+white space does not occur (counting the line feed that precedes EI) is
   captured up to the removal of one end-of-line sequence, and the scan resumes right after the terminator *)
Theorem C18_inline_capture : forall data ws rest, is_space ws = true -> has_marker (data ++ [10]) = false ->
  inline_data (data ++ [10] ++ [69; 73; ws] ++ rest) = (strip_eol (data ++ [10]), rest).
Proof. exact inline_capture. Qed.
Theorem C18_inline_exact : forall data ws rest, is_space ws = true -> has_marker (data ++ [10]) = false ->
  (forall d, data <> d ++ [13]) ->
  inline_data (data ++ [10] ++ [69; 73; ws] ++ rest) = (data, rest).
Proof.
  intros data ws rest Hws Hm Hcr. rewrite inline_capture by assumption. rewrite strip_eol_nl by exact Hcr. reflexivity.
Qed.
(* the same for every data is false of the code: not when the data ends in CR *)
Theorem C18_inline_cr_refuted : exists data rest,
  has_marker (data ++ [10]) = false /\ inline_data (data ++ [10] ++ [69; 73; 32] ++ rest) <> (data, rest).
Proof. exists [1; 13], [81]. split; [reflexivity|]. vm_compute. discriminate. Qed.

Print Assumptions C18_bmp_roundtrip.
Print Assumptions C18_row_roundtrip.
Print Assumptions C18_name_fresh.
Print Assumptions C18_names_distinct.
Print Assumptions C18_inline_capture.
Print Assumptions C18_inline_exact.
Print Assumptions C18_inline_cr_refuted.

(* non-vacuity: a 3x2 RGB image *)
Example C18_ex :
  match bmp_file 24 3 2 9 (map Z.of_nat (seq 1 18)) with
  | Some f => bmp_read f = Some (mkImage 3 2 24 [[1;2;3;4;5;6;7;8;9]; [10;11;12;13;14;15;16;17;18]]) /\ length f = 78%nat
  | None => False
  end.
Proof. vm_compute. split; reflexivity. Qed.
