(* C08 -- Layout analysis conserves content and keeps its hierarchy well-formed.
   Each theorem is derived in a few lines from the lemmas of Proofs/.  Model/Layout.v mirrors
   layout.LTLayoutContainer.group_objects / group_textlines / group_textboxes / analyze with LTTextLine*.add,
   find_neighbors and the analyze passes; the spatial index is the model of C20 (Model/Plane.v, its clamp and cell
   arithmetic regenerated from utils.py). *)
From Coq Require Import QArith List Permutation Lia.
From PdfV Require Import Gen.Geom Model.Layout Proofs.PlaneProofs
                         Proofs.LayoutProofs Proofs.LayoutGroupProofs Proofs.LayoutBoxProofs.
Import ListNotations.

(* glyphs -> lines: the lines, read in order, are the input glyph sequence: nothing lost, duplicated, altered or
   reordered, for ALL parameter values and ALL boxes (off-page, empty, inverted) *)
Theorem C08_lines_conserve : forall p gs, flat_map line_glyphs (group_objects p gs) = gs.
Proof. intros p [|g r]; [reflexivity|]. unfold group_objects. rewrite go_loop_glyphs. reflexivity. Qed.
Theorem C08_line_boxes : forall p gs, Forall wf_line (group_objects p gs).
Proof.
  intros p [|g r]; [constructor|]. apply go_loop_Forall; [| |exact I]; intros; repeat apply wf_add; auto using wf_new.
Qed.
Theorem C08_lines_nonempty : forall p gs, Forall (fun l => line_glyphs l <> []) (group_objects p gs).
Proof.
  intros p gs. assert (A : forall l g, line_glyphs (line_add p l g) <> []).
  { intros l g. rewrite line_glyphs_add. destruct (line_glyphs l); discriminate. }
  destruct gs as [|g r]; [constructor|]. apply go_loop_Forall; auto.
Qed.
Theorem C08_line_break : forall l,
  lelems (line_analyze l) = lelems l ++ [EAnno [10%Z]] /\ line_glyphs (line_analyze l) = line_glyphs l.
Proof.
  intros l. split; [reflexivity|]. unfold line_glyphs, line_analyze. cbn [lelems]. rewrite flat_map_app. cbn. apply app_nil_r.
Qed.
Theorem C08_line_text : forall l, line_text (line_analyze l) = line_text l ++ [10%Z].
Proof. intros l. unfold line_text, line_analyze. cbn [lelems]. rewrite flat_map_app. reflexivity. Qed.

(* lines -> boxes, for any neighbour relation in which a line is its own neighbour: every line is a member of exactly
   one box in use *)
Theorem C08_boxes_partition : forall nb n, (forall i, In i (nb i)) ->
  (forall i, (i < n)%nat -> forall m, In m (nb i) -> (m < n)%nat) ->
  let st := gt_run nb n in
  Permutation (flat_map (members_of st) (yield_ids st (seq 0 n) [])) (seq 0 n).
Proof. intros nb n Hself. apply textlines_partitioned. intros i _. apply Hself. Qed.
(* ... and the documented neighbour relation is such a relation whenever line_margin >= 0: *)
Theorem C08_self_neighbour : forall p pb lines i l,
  wf_bounds pb -> Forall good_line lines -> (0 <= line_margin p)%Q -> nth_error lines i = Some l ->
  In i (neighbors p (make_plane pb (line_objs lines)) lines i).
Proof. exact self_is_neighbour. Qed.
Theorem C08_textlines_conserve : forall p pb lines,
  wf_bounds pb -> Forall good_line lines -> (0 <= line_margin p)%Q ->
  let pl := make_plane pb (line_objs lines) in
  let st := gt_run (neighbors p pl lines) (length lines) in
  Permutation (flat_map (members_of st) (yield_ids st (seq 0 (length lines)) [])) (seq 0 (length lines)).
Proof.
  intros p pb lines Hpb Hgood Hlm pl. apply textlines_partitioned.
  - intros i Hi. destruct (nth_error lines i) as [l|] eqn:El; [|apply nth_error_None in El; lia].
    apply (self_is_neighbour p pb lines i l Hpb Hgood Hlm El).
  - intros i _ m. apply neighbours_in_range.
Qed.

(* boxes -> groups: the loop terminates within its fuel for EVERY input and EVERY tie-breaking order, and the
   leaves of the resulting hierarchy are the boxes, each exactly once *)
Theorem C08_groups_conserve_and_terminate : forall rank pb boxes,
  exists trees amb, group_textboxes rank pb boxes = Some (trees, amb) /\
                    Permutation (flat_map leaves trees) (seq 0 (length boxes)).
Proof. exact group_textboxes_conserves. Qed.
Theorem C08_numbering_visits_all : forall bf boxes t, Permutation (tree_order bf boxes t) (leaves t).
Proof. exact tree_order_perm. Qed.

(* ordering inside a box; sorting never loses a line *)
Theorem C08_box_lines_ordered : forall lines b,
  Permutation (box_lines_sorted lines b) (blines b) /\
  sorted_le (fun m1 m2 => pair_le (line_key lines b m1) (line_key lines b m2)) (box_lines_sorted lines b).
Proof. intros lines b. split; [apply sort_le_perm|apply sort_le_sorted]. intros m1 m2. apply pair_le_total. Qed.

(* boxes_flow = None: numbered 0..n-1 in output order *)
Theorem C08_flat_numbering : forall rank p pb gs l, gs <> [] -> boxes_flow p = None -> analyze rank p pb gs = Some l ->
  map oindex (oboxes l) = map Z.of_nat (seq 0 (length (oboxes l))).
Proof.
  intros rank p pb gs l Hg Hb H. unfold analyze in H. destruct gs as [|g r]; [congruence|]. rewrite Hb in H.
  injection H as <-. cbn [oboxes].
  rewrite (combine_seq_map (fun i => finish_box _ (Z.of_nat i))), map_map. cbn [finish_box oindex].
  rewrite <- (map_map fst Z.of_nat), enum_fst. reflexivity.
Qed.

Print Assumptions C08_lines_conserve.
Print Assumptions C08_line_boxes.
Print Assumptions C08_lines_nonempty.
Print Assumptions C08_line_break.
Print Assumptions C08_line_text.
Print Assumptions C08_boxes_partition.
Print Assumptions C08_self_neighbour.
Print Assumptions C08_textlines_conserve.
Print Assumptions C08_groups_conserve_and_terminate.
Print Assumptions C08_numbering_visits_all.
Print Assumptions C08_box_lines_ordered.
Print Assumptions C08_flat_numbering.

(* non-vacuity: two words on one line, a second line below, analysed *)
Example C08_ex :
  let g i x0 y0 x1 y1 c := mkG i (x0, y0, x1, y1) [c] in
  let gs := [g 0%nat 10 100 16 110 97%Z; g 1%nat 16 100 22 110 98%Z; g 2%nat 30 100 36 110 99%Z;
             g 3%nat 10 88 16 98 100%Z] in
  let p := mkLA (1 # 2) 2 (1 # 2) (1 # 8) (Some (1 # 2)) false in
  match analyze Z.of_nat p (mkPlaneB 0 0 612 792 50%Z) gs with
  | Some l => map (fun b => (oindex b, map line_text (olines b))) (oboxes l)
              = [(0%Z, [[97; 98; 32; 99; 10]; [100; 10]]%Z)]
  | None => False
  end.
Proof. vm_compute. reflexivity. Qed.
