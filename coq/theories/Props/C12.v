(* C12 -- Extraction is a pure function: deterministic, cache- and history-independent.
   Each theorem is derived in a few lines from the lemmas of Proofs/.  Model/Purity.v models the three ways one
   extraction could reach another: shared dictionaries handed out by EncodingDB.get_encoding (heap with aliasing),
   look-up-else-compute caches, and the
   interleaving of independent iterators.  The flags in Gen/Purity.v are read off the source on every run, together
   with the complete inventory of process-wide mutable containers (a new one makes the generator fail closed).
   What is NOT a theorem: that the rest of the library has no other hidden state (observed by the harness through
   call histories), and that the cached computations are functions of the document bytes. *)
From Coq Require Import ZArith List Bool.
From PdfV Require Import Gen.Purity Model.Purity Proofs.PurityProofs.
Import ListNotations.
Open Scope Z_scope.

(* copy-on-write: for the code as it is (the flag is generated from get_encoding's body), no sequence of fonts with
   any Differences changes a shared encoding table *)
Theorem C12_shared_tables_unchanged : forall specs h n, (n <= length h)%nat ->
  firstn n (fst (run_fonts encoding_copy_before_mutation h specs)) = firstn n h.
Proof. exact shared_tables_unchanged. Qed.
(* the statement is sensitive: without the copy it is false *)
Theorem C12_no_copy_refuted : exists h specs, firstn 1 (fst (run_fonts false h specs)) <> firstn 1 h.
Proof. exists [[(65, Some 65)]], [(0%nat, [(65, Some 66)])]. cbn. discriminate. Qed.

(* caches: object cache, font cache, CMap caches, interned names -- answers do not depend on the cache being on, on
   its contents, or on the order of earlier requests *)
Theorem C12_cache_transparent : forall (K V : Type) (keqb : K -> K -> bool) (compute : K -> V),
  (forall a b, keqb a b = true -> a = b) ->
  forall caching ks c, sound K V keqb compute c -> cruns K V keqb compute caching c ks = map compute ks.
Proof. exact cache_transparent. Qed.
Theorem C12_caching_on_equals_off : forall (K V : Type) (keqb : K -> K -> bool) (compute : K -> V),
  (forall a b, keqb a b = true -> a = b) ->
  forall ks, cruns K V keqb compute true [] ks = cruns K V keqb compute false [] ks.
Proof.
  intros K V keqb compute Hk ks. rewrite !(C12_cache_transparent K V keqb compute Hk) by (intros k v H; discriminate). reflexivity.
Qed.
(* the caches of the code are written only under their guards, and the font cache is keyed by the font dictionary's
   object number: read off the source, this is why the caches may be modelled as look-up-else-compute over a key that
   determines the value (the link to C12_cache_transparent is by reading, not by a theorem) *)
Theorem C12_cache_guards : font_cache_guarded = true /\ object_cache_guarded = true /\ use_cmap_copies = true /\
                           type0_subspec_copied = true /\ font_cache_key_is_objid = true.
Proof. repeat split; reflexivity. Qed.

(* interleaving the page iterators of two documents changes nothing for either *)
Theorem C12_interleaving : forall (S1 S2 O1 O2 : Type) (step1 : S1 -> S1 * O1) (step2 : S2 -> S2 * O2) sched s1 s2,
  irun S1 S2 O1 O2 step1 step2 sched s1 s2 = (run1 S1 O1 step1 (count true sched) s1, run2 S2 O2 step2 (count false sched) s2).
Proof. exact interleaving_irrelevant. Qed.

Print Assumptions C12_shared_tables_unchanged.
Print Assumptions C12_no_copy_refuted.
Print Assumptions C12_cache_transparent.
Print Assumptions C12_caching_on_equals_off.
Print Assumptions C12_cache_guards.
Print Assumptions C12_interleaving.

Example C12_ex :
  let h := [[(65, Some 65)]; []; []; []] in
  let r := run_fonts true h [(0%nat, [(65, Some 66)]); (0%nat, [])] in
  map (fun a => font_lookup (fst r) a 65) (snd r) = [Some 66; Some 65].
Proof. reflexivity. Qed.
