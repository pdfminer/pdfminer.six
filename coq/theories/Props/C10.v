(* C10 -- Decryption: either password opens the document to exactly the original content.
   Each theorem is derived in a few lines from the lemmas of Proofs/CryptProofs.v and Proofs/CryptR6Proofs.v, or by
   unfolding the model's definition.
   Model/Crypt.v mirrors arcfour.Arcfour and
   pdfdocument.PDFStandardSecurityHandler / V4 / V5.  MD5, the SHA-2 functions, the AES block cipher and, in
   authenticate5, the revision 5/6 password hash are parameters of the model: every theorem below holds for EVERY
   function in their place.  The revision-6 hash loop is modelled on its own (Model/CryptR6.v, last four theorems); it
   is not plugged into authenticate5.
   What no theorem can state: that a wrong password is rejected (it is accepted exactly when the 16/32 hash bytes
   collide); the model proves instead that acceptance implies Algorithm 6, and the harness tests rejection. *)
From Coq Require Import ZArith List Bool Lia.
From PdfV Require Import Model.Crypt Proofs.CryptProofs.
From PdfV Require Import Model.CMaps Model.CryptR6 Proofs.CryptR6Proofs.
Import ListNotations.
Open Scope Z_scope.

(* RC4 decryption inverts RC4 encryption for every key and every data *)
Theorem C10_rc4_involution : forall key d, rc4 key (rc4 key d) = d.
Proof. exact rc4_involution. Qed.
Theorem C10_rc4_length : forall key d, length (rc4 key d) = length d.
Proof. exact rc4_length. Qed.

(* per-object keys: same object number and generation, same key; so strings and streams come back exactly *)
Theorem C10_object_rc4 : forall md5 key objid genno data,
  decrypt_rc4 md5 key objid genno (decrypt_rc4 md5 key objid genno data) = data.
Proof. intros md5 key objid genno data. unfold decrypt_rc4. apply rc4_involution. Qed.

(* the owner password recovers the (padded) user password from O written by ISO Algorithm 3: revisions 2, 3, 4 *)
Theorem C10_owner_recovers_user : forall md5 pr owner user,
  owner_recover md5 (with_o pr (spec_compute_o md5 pr owner user)) owner = pad32 user.
Proof. exact owner_recovers_user. Qed.

(* when O and U were written by Algorithms 3 and 4/5: the user password yields the file key; the owner password is
   accepted, and yields the same key unless it also passes Algorithm 6 as a user password (of that case nothing is said) *)
Theorem C10_either_password : forall md5 pr0 owner user,
  let pr := with_o pr0 (spec_compute_o md5 pr0 owner user) in
  (if revision pr =? 2 then uval pr = compute_u md5 pr (compute_encryption_key md5 pr user)
   else firstn 16 (uval pr) = firstn 16 (compute_u md5 pr (compute_encryption_key md5 pr user))) ->
  authenticate md5 pr user = Some (compute_encryption_key md5 pr user) /\
  exists k, authenticate md5 pr owner = Some k /\
            (authenticate_user md5 pr owner = None -> k = compute_encryption_key md5 pr user).
Proof.
  intros md5 pr0 owner user pr Hu. split; [apply user_authenticates; exact Hu|].
  unfold authenticate. destruct (authenticate_user md5 pr owner) as [k|] eqn:E.
  - exists k. split; [reflexivity|discriminate].
  - exists (compute_encryption_key md5 pr user). split; [|reflexivity].
    apply (owner_authenticates md5 pr0 owner user). exact Hu.
Qed.

(* nothing is accepted that does not pass Algorithm 6 *)
Theorem C10_accepted_only_if_verified : forall md5 pr pw k, authenticate md5 pr pw = Some k ->
  verify_encryption_key md5 pr k = true.
Proof.
  intros md5 pr pw k.
  unfold authenticate, authenticate_owner, authenticate_user. intros H.
  destruct (verify_encryption_key md5 pr (compute_encryption_key md5 pr pw)) eqn:E1.
  - injection H as <-. exact E1.
  - destruct (verify_encryption_key md5 pr (compute_encryption_key md5 pr (owner_recover md5 pr pw))) eqn:E2; [|discriminate].
    injection H as <-. exact E2.
Qed.

(* AES: CBC decryption inverts CBC encryption for every invertible block cipher; the padding is removed exactly *)
Theorem C10_cbc : forall block_dec block_enc : bytes -> bytes -> bytes,
  (forall k b, length b = 16%nat -> block_dec k (block_enc k b) = b) ->
  (forall k b, length b = 16%nat -> length (block_enc k b) = 16%nat) ->
  forall key ps iv, length iv = 16%nat -> Forall (fun p => length p = 16%nat) ps ->
  cbc_decrypt block_dec key iv (cbc_encrypt block_enc key iv ps) = ps.
Proof. exact cbc_roundtrip. Qed.
Theorem C10_unpad : forall d, unpad (pkcs_pad d) = d.
Proof. exact unpad_pad. Qed.
Theorem C10_aes : forall (cbc : bytes -> bytes -> bytes -> bytes) key iv ct d,
  length iv = 16%nat -> cbc key iv ct = pkcs_pad d -> decrypt_aes cbc key (iv ++ ct) = d.
Proof. exact aes_roundtrip. Qed.

(* revisions 5 and 6: the owner entry is tried first, then the user entry; otherwise rejected *)
Theorem C10_auth5_owner : forall pwhash cbc0 pr pw,
  bytes_eqb (pwhash pw (firstn 8 (skipn 32 (o5 pr))) (u5 pr)) (firstn 32 (o5 pr)) = true ->
  authenticate5 pwhash cbc0 pr pw = Some (cbc0 (pwhash pw (skipn 40 (o5 pr)) (u5 pr)) (oe5 pr)).
Proof. intros pwhash cbc0 pr pw H. unfold authenticate5. rewrite H. reflexivity. Qed.
Theorem C10_auth5_user : forall pwhash cbc0 pr pw,
  bytes_eqb (pwhash pw (firstn 8 (skipn 32 (o5 pr))) (u5 pr)) (firstn 32 (o5 pr)) = false ->
  bytes_eqb (pwhash pw (firstn 8 (skipn 32 (u5 pr))) []) (firstn 32 (u5 pr)) = true ->
  authenticate5 pwhash cbc0 pr pw = Some (cbc0 (pwhash pw (skipn 40 (u5 pr)) []) (ue5 pr)).
Proof. intros pwhash cbc0 pr pw H1 H2. unfold authenticate5. rewrite H1, H2. reflexivity. Qed.
Theorem C10_auth5_reject : forall pwhash cbc0 pr pw,
  bytes_eqb (pwhash pw (firstn 8 (skipn 32 (o5 pr))) (u5 pr)) (firstn 32 (o5 pr)) = false ->
  bytes_eqb (pwhash pw (firstn 8 (skipn 32 (u5 pr))) []) (firstn 32 (u5 pr)) = false ->
  authenticate5 pwhash cbc0 pr pw = None.
Proof. intros pwhash cbc0 pr pw H1 H2. unfold authenticate5. rewrite H1, H2. reflexivity. Qed.

(* the three permissions are bits 3, 4 and 5 (1-based) of the stored signed P *)
Theorem C10_permissions : forall p, - 2147483648 <= p < 2147483648 ->
  is_printable (uint32 p) = Z.testbit p 2 /\ is_modifiable (uint32 p) = Z.testbit p 3 /\ is_extractable (uint32 p) = Z.testbit p 4.
Proof.
  intros p Hp. unfold is_printable, is_modifiable, is_extractable.
  change 4 with (2 ^ 2). change 8 with (2 ^ 3). change 16 with (2 ^ 4).
  rewrite !land_bit by lia. rewrite !negb_involutive. rewrite !uint32_bits by lia. repeat split.
Qed.

(* the selector computed as a sum of residues is the big-endian number modulo 3, for a byte string of any length *)
Theorem C10_r6_selector : forall l, bytes_mod_3 l = nunpack l mod 3.
Proof. intros l. symmetry. apply mod3_folds. reflexivity. Qed.

(* for EVERY hash functions and cipher (whose output is bytes) the loop ends within the model's fuel ... *)
Theorem C10_r6_terminates : forall (sha256 sha384 sha512 : bytes -> bytes) (aes_rep : bytes -> bytes -> bytes -> bytes),
  (forall k iv d, Forall (fun b => 0 <= b <= 255) (aes_rep k iv d)) ->
  forall pw salt vec, r6_password sha256 sha384 sha512 aes_rep pw salt vec <> None.
Proof.
  intros sha256 sha384 sha512 aes_rep aes_bytes pw salt vec.
  unfold r6_password, r6_password_rounds.
  destruct (r6_loop_ends sha256 sha384 sha512 aes_rep aes_bytes r6_fuel pw vec (sha256 (pw ++ salt ++ vec)) 0 0) as (out & n & E & _);
    [lia|lia|unfold r6_fuel; lia|]. rewrite E. discriminate.
Qed.

(* ... after at least 64 and at most 288 rounds ... *)
Theorem C10_r6_rounds : forall (sha256 sha384 sha512 : bytes -> bytes) (aes_rep : bytes -> bytes -> bytes -> bytes),
  (forall k iv d, Forall (fun b => 0 <= b <= 255) (aes_rep k iv d)) ->
  forall pw salt vec out n,
  r6_password_rounds sha256 sha384 sha512 aes_rep pw salt vec = Some (out, n) -> 64 <= n <= 288.
Proof.
  intros sha256 sha384 sha512 aes_rep aes_bytes pw salt vec out n.
  unfold r6_password_rounds.
  destruct (r6_loop_ends sha256 sha384 sha512 aes_rep aes_bytes r6_fuel pw vec (sha256 (pw ++ salt ++ vec)) 0 0) as (out' & n' & E & _ & Hn);
    [lia|lia|unfold r6_fuel; lia|]. rewrite E. intros [= _ <-]. exact Hn.
Qed.

(* ... and returns the first 32 bytes of K_m for the FIRST round m >= 64 whose E ends in a byte <= m - 32, where
   K_0 = SHA-256(password ++ salt ++ vector) and each round turns K_(i-1) into K_i as 2.B prescribes *)
Theorem C10_r6_is_algorithm_2B : forall (sha256 sha384 sha512 : bytes -> bytes) (aes_rep : bytes -> bytes -> bytes -> bytes),
  forall pw salt vec out n,
  r6_password_rounds sha256 sha384 sha512 aes_rep pw salt vec = Some (out, n) ->
  exists m, n = Z.of_nat m /\
            out = firstn 32 (fst (k_seq sha256 sha384 sha512 aes_rep pw vec (sha256 (pw ++ salt ++ vec)) m)) /\
            stops sha256 sha384 sha512 aes_rep pw vec (sha256 (pw ++ salt ++ vec)) m /\
            forall j, (j < m)%nat -> ~ stops sha256 sha384 sha512 aes_rep pw vec (sha256 (pw ++ salt ++ vec)) j.
Proof.
  intros sha256 sha384 sha512 aes_rep pw salt vec out n.
  (* with the fuel a variable, matching H against r6_loop_iso cannot start unfolding the loop *)
  unfold r6_password_rounds. generalize r6_fuel. intros fuel H.
  destruct (r6_loop_iso sha256 sha384 sha512 aes_rep fuel pw vec (sha256 (pw ++ salt ++ vec)) 0 out n H) as (m & Hn & _ & Hout & Hs & Hmin).
  exists m. refine (conj Hn (conj Hout (conj Hs _))). intros j Hj. apply Hmin. lia.
Qed.

Print Assumptions C10_rc4_involution.
Print Assumptions C10_rc4_length.
Print Assumptions C10_object_rc4.
Print Assumptions C10_owner_recovers_user.
Print Assumptions C10_either_password.
Print Assumptions C10_accepted_only_if_verified.
Print Assumptions C10_cbc.
Print Assumptions C10_unpad.
Print Assumptions C10_aes.
Print Assumptions C10_auth5_owner.
Print Assumptions C10_auth5_user.
Print Assumptions C10_auth5_reject.
Print Assumptions C10_permissions.
Print Assumptions C10_r6_selector.
Print Assumptions C10_r6_terminates.
Print Assumptions C10_r6_rounds.
Print Assumptions C10_r6_is_algorithm_2B.

(* non-vacuity: RC4 test vector (key "Key", plaintext "Plaintext" -> BBF316E8D940AF0AD3) and a padded block *)
Example C10_ex_rc4 : rc4 [75; 101; 121] [80; 108; 97; 105; 110; 116; 101; 120; 116] = [187; 243; 22; 232; 217; 64; 175; 10; 211].
Proof. vm_compute. reflexivity. Qed.
Example C10_ex_pad : unpad (pkcs_pad [1; 2; 3]) = [1; 2; 3] /\ length (pkcs_pad (repeat 7 16)) = 32%nat.
Proof. vm_compute. split; reflexivity. Qed.
(* the round loop on toy primitives: a cipher whose output ends in 200 keeps the loop going until round 232 *)
Example C10_ex_r6 :
  r6_password_rounds (fun d => firstn 32 (d ++ repeat 7 32)) (fun d => firstn 48 (d ++ repeat 8 48)) (fun d => firstn 64 (d ++ repeat 9 64))
                     (fun k iv blk => k ++ iv ++ blk ++ [200]) [1; 2] [3; 4; 5; 6; 7; 8; 9; 10] []
  = Some ([1; 2; 3; 4; 5; 6; 7; 8; 9; 10] ++ repeat 7 22, 232).
Proof. vm_compute. reflexivity. Qed.
