(* C20 -- Geometry helpers obey affine algebra; spatial index equals brute-force
   search.  Each theorem is a lemma of Proofs/ or derived from them in a few
   lines, and followed by Print Assumptions.  The matrix helpers, drange and the cell
   clamp are the translator-generated text of Gen/Geom.v (re-generated from
   pdfminer/utils.py on every run). *)
From Coq Require Import QArith List.
From PdfV Require Import Base.Num Gen.Geom Model.Plane Proofs.GeomLaws Proofs.PlaneProofs.
Import ListNotations.

Section AnyCommutativeRing.
  Variable R : Type.
  Variables (rO rI : R) (radd rmul rsub : R -> R -> R) (ropp : R -> R).
  Variable Rth : ring_theory rO rI radd rmul rsub ropp (@eq R).
  Variables (dv : R -> R -> R) (le lt eqb : R -> R -> bool) (ofz : Z -> R) (tr fl : R -> Z).
  Let o : NumOps R := mkNumOps R radd rsub rmul dv ropp le lt eqb ofz tr fl.
  Notation idm := (rI, rO, rO, rI, rO, rO).

  Theorem C20_mult_assoc : forall m2 m1 m0,
    mult_matrix o m2 (mult_matrix o m1 m0) = mult_matrix o (mult_matrix o m2 m1) m0.
  Proof. exact (mult_assoc R rO rI radd rmul rsub ropp Rth dv le lt eqb ofz tr fl). Qed.

  Theorem C20_mult_id_l : forall m, mult_matrix o idm m = m.
  Proof. exact (mult_id_l R rO rI radd rmul rsub ropp Rth dv le lt eqb ofz tr fl). Qed.

  Theorem C20_mult_id_r : forall m, mult_matrix o m idm = m.
  Proof. exact (mult_id_r R rO rI radd rmul rsub ropp Rth dv le lt eqb ofz tr fl). Qed.

  (* applying a composed matrix = applying its factors in turn *)
  Theorem C20_apply_mult : forall m1 m0 p,
    apply_matrix_pt o (mult_matrix o m1 m0) p = apply_matrix_pt o m0 (apply_matrix_pt o m1 p).
  Proof. exact (apply_mult R rO rI radd rmul rsub ropp Rth dv le lt eqb ofz tr fl). Qed.

  Theorem C20_apply_id : forall p, apply_matrix_pt o idm p = p.
  Proof. exact (apply_id R rO rI radd rmul rsub ropp Rth dv le lt eqb ofz tr fl). Qed.

  (* translation inside the projection: pre-composition with a translation *)
  Theorem C20_translate_as_mult : forall m v,
    translate_matrix o m v = mult_matrix o (rI, rO, rO, rI, fst v, snd v) m.
  Proof. exact (translate_as_mult R rO rI radd rmul rsub ropp Rth dv le lt eqb ofz tr fl). Qed.

  Theorem C20_translate_apply : forall m v p,
    apply_matrix_pt o (translate_matrix o m v) p
    = apply_matrix_pt o m (radd (fst p) (fst v), radd (snd p) (snd v)).
  Proof. exact (translate_apply R rO rI radd rmul rsub ropp Rth dv le lt eqb ofz tr fl). Qed.

  Theorem C20_norm : forall m v,
    apply_matrix_norm o m v
    = (rsub (fst (apply_matrix_pt o m v)) (fst (apply_matrix_pt o m (rO, rO))),
       rsub (snd (apply_matrix_pt o m v)) (snd (apply_matrix_pt o m (rO, rO)))).
  Proof. exact (norm_is_difference R rO rI radd rmul rsub ropp Rth dv le lt eqb ofz tr fl). Qed.
End AnyCommutativeRing.

(* the box of a transformed rectangle is the tight hull of its four corners *)
Theorem C20_rect_hull : forall (m : Q * Q * Q * Q * Q * Q) (r : Q * Q * Q * Q),
  let '(X0, Y0, X1, Y1) := apply_matrix_rect QOps m r in
  let cs := List.map (apply_matrix_pt QOps m) (corners r) in
  (forall p, List.In p cs -> X0 <= fst p /\ fst p <= X1 /\ Y0 <= snd p /\ snd p <= Y1)%Q
  /\ (exists p, List.In p cs /\ fst p = X0) /\ (exists p, List.In p cs /\ fst p = X1)
  /\ (exists p, List.In p cs /\ snd p = Y0) /\ (exists p, List.In p cs /\ snd p = Y1).
Proof. exact rect_hull. Qed.

(* After ANY sequence of insertions of fresh well-formed objects and removals of
   live ones, for ANY well-formed query box, find returns exactly the live
   objects whose boxes strictly overlap it, each once -- whatever the plane
   bounds (objects on, across and outside them) and the grid size.  The order
   of the result (first occurrence in the scanned cells) is not stated.  The
   reached state p is that of C20_iter: its pseq is [inserted ops], its live ids
   are those inserted and not removed (PlaneProofs.run_spec). *)
Theorem C20_find_bruteforce : forall pb ops qb,
  wf_bounds pb -> valid_ops (plane_init pb) ops -> wf_box qb ->
  exists p, plane_run (plane_init pb) ops = Some p /\
    NoDup (map oid (plane_find p qb)) /\
    forall o, In o (plane_find p qb) <->
              In o (pseq p) /\ In (oid o) (plive p) /\ overlaps (obox o) qb.
Proof.
  intros pb ops qb Hb V Hq.
  destruct (run_spec ops (plane_init pb) (Inv_init pb Hb) V) as (p & E & I & _).
  exists p. split; [exact E|]. apply find_bruteforce; assumption.
Qed.

(* iteration yields the inserted objects that were not removed, in insertion
   order, each once *)
Theorem C20_iter : forall pb ops,
  wf_bounds pb -> valid_ops (plane_init pb) ops ->
  exists p, plane_run (plane_init pb) ops = Some p /\
    plane_iter p = filter (fun o => negb (mem_nat (oid o) (removed ops))) (inserted ops) /\
    NoDup (map oid (plane_iter p)).
Proof. exact iter_after_ops. Qed.

(* non-vacuity: a concrete history meets the hypotheses, with an object outside
   the bounds and one inside (-1,0) under negative bounds *)
Example C20_nonvacuous :
  let pb := mkPlaneB (-10) (-10) 100 100 50%Z in
  let o1 := mkObj 1 (-20, -20, -12, -12)%Q in
  let o2 := mkObj 2 (-(9#10), -(9#10), -(1#2), -(1#2))%Q in
  let o3 := mkObj 3 (10, 10, 60, 60)%Q in
  let ops := [PAdd o1; PAdd o2; PAdd o3; PRemove o3] in
  wf_bounds pb /\ valid_ops (plane_init pb) ops /\
  option_map (fun p => map oid (plane_find p (-30, -30, 0, 0)%Q)) (plane_run (plane_init pb) ops)
  = Some [1; 2]%nat.
Proof.
  cbv zeta. split; [|split].
  - cbv. repeat split; discriminate.
  - cbn. repeat split; try (cbv; intuition discriminate); auto.
    all: cbn; intuition (try discriminate; auto).
  - vm_compute. reflexivity.
Qed.

Print Assumptions C20_mult_assoc.
Print Assumptions C20_mult_id_l.
Print Assumptions C20_mult_id_r.
Print Assumptions C20_apply_mult.
Print Assumptions C20_apply_id.
Print Assumptions C20_translate_as_mult.
Print Assumptions C20_translate_apply.
Print Assumptions C20_norm.
Print Assumptions C20_rect_hull.
Print Assumptions C20_find_bruteforce.
Print Assumptions C20_iter.
Print Assumptions C20_nonvacuous.
